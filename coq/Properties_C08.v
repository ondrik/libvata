(* C08 — BDD-encoded automata: load/dump, union, intersection, trimming, conversion keep exact languages; no call
   changes the language of an operand. Value-level pool model. Statements only. *)
From Coq Require Import List NArith Bool.
From V Require Import Sem Prod Incl TrimDefs TrimProofs Lang ProductDefs ProductProofs PoolDefs PoolProofs ArityPrefix SharedTable DispatchTable ArityTie BddSym.

(* frame property: an operation of the pool changes no handle but its target (operands keep their languages) *)
Theorem C08_frame : forall p o h, h <> target o -> plookup (pool_step p o) h = plookup p h.
Proof. exact pool_step_frame. Qed.
(* union / intersection results denote exactly the union / intersection of what the operands denote *)
Theorem C08_union_lang : forall p k i j a b, plookup p i = Some a -> plookup p j = Some b ->
  exists c, plookup (pool_step p (OUnion k i j)) k = Some c /\ forall t, accepts c t <-> accepts a t \/ accepts b t.
Proof. exact pool_union_lang. Qed.
Theorem C08_isect_lang : forall p k i j a b, plookup p i = Some a -> plookup p j = Some b ->
  exists c, plookup (pool_step p (OIsect k i j)) k = Some c /\ forall t, accepts c t <-> accepts a t /\ accepts b t.
Proof. exact pool_isect_lang. Qed.
(* trimming and conversion to top-down form denote the operand's value; copies denote the source's value *)
Theorem C08_keep_lang : forall p k i a, plookup p i = Some a -> plookup (pool_step p (OKeep k i)) k = Some a.
Proof. exact pool_keep_lang. Qed.
Theorem C08_copy_value : forall p k j a, plookup p j = Some a -> plookup (pool_step p (OCopy k j)) k = Some a.
Proof. exact pool_copy_value. Qed.
(* the gate applied after every step: every observed handle has the language of its model value, same live handles *)
Theorem C08_gate_sound : forall model observed, pool_gate model observed = true -> pool_agree model observed.
Proof. exact pool_gate_sound. Qed.
(* re-basing the model on the observed (language-equivalent) values is sound: operations are congruences *)
Theorem C08_union_congr : forall a a' b b', leq a a' -> leq b b' -> leq (tagged a b) (tagged a' b').
Proof. exact tagged_congr. Qed.
Theorem C08_isect_congr : forall a a' b b', leq a a' -> leq b b' -> leq (product a b) (product a' b').
Proof. exact product_congr. Qed.
(* no useless state after RemoveUselessStates: the gate is C03's *)
Theorem C08_no_useless : forall L, no_useless L = true <-> useless_postcond L.
Proof. exact no_useless_spec. Qed.

(* arity prefix of the top-down encoding (addArityToSymbol): inside the guards (16-bit symbols, arity <= 63) the key of a
   transition determines symbol and arity; outside them different arities collide (6 bits are stored) *)
Theorem C08_arity_prefix_injective : forall s1 a1 s2 a2, in_guard s1 a1 = true -> in_guard s2 a2 = true ->
  td_key s1 a1 = td_key s2 a2 -> s1 = s2 /\ a1 = a2.
Proof. exact td_key_injective. Qed.
Theorem C08_arity_prefix_guard_needed : td_key 5 64 = td_key 5 0 /\ in_guard 5 64 = false.
Proof. exact td_key_guard_needed. Qed.

(* the shortcuts available when two BDD automata share their transition table (copies with other final states): union of the final
   states is exact (the one libvata takes); intersecting the final states is only a lower bound of the intersection *)
Theorem C08_shared_union_exact : forall A F G t,
  accepts (with_finals (F ++ G) A) t <-> accepts (with_finals F A) t \/ accepts (with_finals G A) t.
Proof. exact shared_union_finals_exact. Qed.
Theorem C08_shared_isect_refuted : exists A F G t,
  accepts (with_finals F A) t /\ accepts (with_finals G A) t /\ ~ accepts (with_finals (finter F G) A) t.
Proof. exact shared_isect_finals_refuted. Qed.

(* the layout constants of the model are those found in the sources on this run (generated DispatchTable.v) *)
Theorem C08_arity_constants_from_source :
  src_SYMBOL_SIZE = SYMBOL_BITS /\ src_SYMBOL_ARITY_LENGTH = ARITY_BITS /\ src_MAX_ARITY_IS_ALL_ONES = true /\
  MAX_ARITY = (2 ^ src_SYMBOL_ARITY_LENGTH - 1)%N.
Proof. exact arity_constants_tied. Qed.

(* D14 in the model: rules of an earlier right operand left in a table shared with the left operand do not change the left operand's
   language, yet they become live in a later union with a right operand that re-uses the state numbers *)
Theorem C08_ud_garbage_becomes_live :
  disjoint (states dA) (states dB) /\ disjoint (states dA) (states dC) /\
  (forall t, accepts (polluted dA dB) t <-> accepts dA t) /\
  exists t, accepts (ta_app (polluted dA dB) dC) t /\ ~ accepts dA t /\ ~ accepts dC t.
Proof. exact ud_garbage_becomes_live. Qed.

(* (A) the symbolic transition tables of the bottom-up encoding: tuple of children |-> MTBDD over the symbol bits with SETS of parent
   states in the leaves. Union merges the MTBDDs of equal tuples with Apply2 and set union, Intersection pairs tuples of equal length
   and merges with "all pairs". For EVERY symbol the explicit rules of the result are the union / the product of the operands' rules *)
Theorem C08_symbolic_union_parents : forall B A cs s x, BddSym.keys_nodup A -> BddSym.keys_nodup B ->
  (In x (parents (bunion A B) cs s) <-> In x (parents A cs s) \/ In x (parents B cs s)).
Proof. exact (fun B A cs s x _ => bunion_parents B A cs s x). Qed.
Theorem C08_symbolic_isect_entry : forall K A B cs d, In (cs, d) (bisect K A B) <->
  exists ca da cb db, In (ca, da) A /\ In (cb, db) B /\ length ca = length cb /\
    cs = map (fun pq => pair_code K (fst pq) (snd pq)) (combine ca cb) /\ d = MtbddDefs.apply2 pset pset_eq_dec (set_pairs K) da db.
Proof. exact bisect_entry. Qed.
Theorem C08_symbolic_isect_parents : forall K da db s x,
  In x (MtbddDefs.ev pset (MtbddDefs.apply2 pset pset_eq_dec (set_pairs K) da db) s) <->
  exists p q, In p (MtbddDefs.ev pset da s) /\ In q (MtbddDefs.ev pset db s) /\ x = pair_code K p q.
Proof. exact set_pairs_apply2_ev. Qed.
Example C08_symbolic_union_example :
  parents (bunion exA exB) (List.cons 1 (List.cons 2 List.nil))%N s01 = (List.cons 5 (List.cons 6 List.nil))%N /\
  parents (bunion exA exB) (List.cons 3 List.nil)%N (fun _ => true) = (List.cons 7 List.nil)%N /\
  parents (bunion exA exB) (List.cons 1 (List.cons 2 List.nil))%N (fun _ => true) = List.nil /\ length (bunion exA exB) = 3.
Proof. exact bunion_example. Qed.

Print Assumptions C08_frame.
Print Assumptions C08_arity_prefix_injective.
Print Assumptions C08_arity_prefix_guard_needed.
Print Assumptions C08_union_lang.
Print Assumptions C08_isect_lang.
Print Assumptions C08_keep_lang.
Print Assumptions C08_copy_value.
Print Assumptions C08_gate_sound.
Print Assumptions C08_union_congr.
Print Assumptions C08_isect_congr.
Print Assumptions C08_no_useless.
Print Assumptions C08_shared_union_exact.
Print Assumptions C08_shared_isect_refuted.
Print Assumptions C08_arity_constants_from_source.
Print Assumptions C08_ud_garbage_becomes_live.
Print Assumptions C08_symbolic_union_parents.
Print Assumptions C08_symbolic_isect_entry.
Print Assumptions C08_symbolic_isect_parents.
Print Assumptions C08_symbolic_union_example.
