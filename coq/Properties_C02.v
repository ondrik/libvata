(* C02 — union and intersection of explicit tree automata have exact language semantics; the reported maps
   name the states of the result. Statements only. *)
From Coq Require Import List NArith Bool.
From V Require Import Sem Prod Incl TrimDefs Lang ProductDefs ProductProofs BinopDefs BinopProofs SharedTable ProdNumbering.

(* Union as the code builds it (both operands re-indexed into one automaton) accepts exactly the union,
   for every pair of reported maps that are injective on the operands' states with disjoint ranges *)
Theorem C02_union_lang : forall hA hB A B, valid_unionb hA hB A B = true ->
  forall t, accepts (union_with hA hB A B) t <-> accepts A t \/ accepts B t.
Proof. exact union_with_lang. Qed.
(* UnionDisjointStates (cluster-map merge) under the disjointness precondition *)
Theorem C02_union_disjoint_lang : forall A B, disjointb (states A) (states B) = true ->
  forall t, accepts (ta_app A B) t <-> accepts A t \/ accepts B t.
Proof. exact union_disjoint_lang. Qed.
(* product constructions: Intersection (top-down from final pairs) and IntersectionBU (bottom-up) *)
Theorem C02_isect_td_lang : forall A B t, accepts (isect_td A B) t <-> accepts A t /\ accepts B t.
Proof. exact isect_td_lang. Qed.
Theorem C02_isect_bu_lang : forall A B t, accepts (isect_bu A B) t <-> accepts A t /\ accepts B t.
Proof. exact isect_bu_lang. Qed.
(* every product state stands for a pair and has the intersection of the components' state languages *)
Theorem C02_product_state_lang : forall A B t p q, In q (states B) ->
  reach (product A B) t (pcode (bound (states B)) p q) <-> reach A t p /\ reach B t q.
Proof. exact product_state_lang. Qed.
(* the gates evaluated on libvata's results decide exactly the property clauses *)
Theorem C02_gate_union : forall A B R, union_gate A B R = true <-> forall t, accepts R t <-> accepts A t \/ accepts B t.
Proof. exact union_gate_spec. Qed.
Theorem C02_gate_isect : forall A B R, isect_gate A B R = true <-> forall t, accepts R t <-> accepts A t /\ accepts B t.
Proof. exact isect_gate_spec. Qed.
Theorem C02_gate_names_union : forall mL mR A B R, names_union mL mR A B R = true <-> names_union_prop mL mR A B R.
Proof. exact names_union_spec. Qed.
Theorem C02_gate_names_isect : forall pm A B R, names_isect pm A B R = true <-> names_isect_prop pm A B R.
Proof. exact names_isect_spec. Qed.

(* operands over one shared transition table: union of the final states is the union of the languages; intersecting the final states
   is only a lower bound of the intersection; appending tables without renaming needs disjoint STATE sets, not just disjoint owners *)
Theorem C02_shared_union_exact : forall A F G t,
  accepts (with_finals (F ++ G) A) t <-> accepts (with_finals F A) t \/ accepts (with_finals G A) t.
Proof. exact shared_union_finals_exact. Qed.
Theorem C02_shared_isect_sound : forall A F G t,
  accepts (with_finals (finter F G) A) t -> accepts (with_finals F A) t /\ accepts (with_finals G A) t.
Proof. exact shared_isect_finals_sound. Qed.
Theorem C02_shared_isect_refuted : exists A F G t,
  accepts (with_finals F A) t /\ accepts (with_finals G A) t /\ ~ accepts (with_finals (finter F G) A) t.
Proof. exact shared_isect_finals_refuted. Qed.
Theorem C02_owners_disjoint_not_enough : disjoint (owners uA) (owners uB) /\
  exists t, accepts (ta_app uA uB) t /\ ~ accepts uA t /\ ~ accepts uB t.
Proof. exact owners_disjoint_not_enough. Qed.

(* (A) how the product constructions number their states: a pair not found in the translation map gets the number `size of the map`.
   For EVERY sequence of look-ups the map is injective in both directions, and an answer, once given, is what the final map says *)
Theorem C02_numbering_injective : forall ops e1 e2, In e1 (pm_run ops nil) -> In e2 (pm_run ops nil) ->
  (snd e1 = snd e2 -> e1 = e2) /\ (fst e1 = fst e2 -> e1 = e2).
Proof. exact (fun ops e1 e2 H1 H2 => conj (numbering_inj_number ops e1 e2 H1 H2) (numbering_inj_key ops e1 e2 H1 H2)). Qed.
Theorem C02_numbering_stable : forall ops1 ops2 p q,
  In ((p, q), snd (pm_get (pm_run ops1 nil) p q)) (pm_run (ops1 ++ (p, q) :: ops2) nil).
Proof. exact numbering_stable. Qed.
(* erasing entries from the map ("dead pairs") breaks it: one number is handed out for two pairs *)
Theorem C02_numbering_erase_refuted :
  let r := pm_run_e (cons (Get 0 0) (cons (Get 1 1) (cons (Erase 0 0) (cons (Get 2 2) nil)))) in
  In ((1, 1), 1)%N (snd r) /\ In ((2, 2), 1)%N (snd r) /\ In ((1, 1), 1)%N (fst r) /\ In ((2, 2), 1)%N (fst r).
Proof. exact numbering_erase_refuted. Qed.

Print Assumptions C02_union_lang.
Print Assumptions C02_union_disjoint_lang.
Print Assumptions C02_isect_td_lang.
Print Assumptions C02_isect_bu_lang.
Print Assumptions C02_product_state_lang.
Print Assumptions C02_gate_union.
Print Assumptions C02_gate_isect.
Print Assumptions C02_gate_names_union.
Print Assumptions C02_gate_names_isect.
Print Assumptions C02_shared_union_exact.
Print Assumptions C02_shared_isect_sound.
Print Assumptions C02_shared_isect_refuted.
Print Assumptions C02_owners_disjoint_not_enough.
Print Assumptions C02_numbering_injective.
Print Assumptions C02_numbering_stable.
Print Assumptions C02_numbering_erase_refuted.
