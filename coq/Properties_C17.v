(* C17 — MTBDD operations are pointwise correct and representations are canonical.
   Nothing but statements closed by [exact]; the proofs are in MtbddProofs.v / MtbddStoreProofs.v.
   Model: MtbddDefs.v (functional, follows ondriks_mtbdd.hh / apply{1,2,3}func.hh / classify_case.hh),
   MtbddStoreDefs.v (hash-consing store, for the operator== clause). *)
From Coq Require Import List Arith Bool.
From V Require Import MtbddDefs MtbddOps MtbddProofs MtbddStoreDefs MtbddStoreProofs MtbddMemo.
Import ListNotations.

Section P.
Variable V : Type.
Variable V_eq_dec : forall a b : V, {a = b} + {a <> b}.
Notation dd := (dd V).
Notation ev := (ev V).
Notation wf := (wf V).

(* an MTBDD returns, for a total assignment, the value it was built with:
   value v on the assignments matched by asgn (don't-care positions match both), dflt elsewhere *)
Theorem C17_construct_ev : forall asgn v dflt s,
  (refines asgn s -> ev (construct V V_eq_dec asgn v dflt) s = v) /\
  (~ refines asgn s -> ev (construct V V_eq_dec asgn v dflt) s = dflt).
Proof. exact (construct_ev_refines V V_eq_dec). Qed.
Theorem C17_construct_wf : forall asgn v dflt, wf (construct V V_eq_dec asgn v dflt).
Proof. exact (construct_wf V V_eq_dec). Qed.
(* GetValue: a don't-care (or missing) position follows the low child; on a total assignment this is ev *)
Theorem C17_get_value_ev : forall d a, get_value V d a = ev d (asg_of a).
Proof. exact (get_value_ev V). Qed.
Theorem C17_get_value_member : forall d a, exists s, refines a s /\ get_value V d a = ev d s.
Proof. exact (get_value_member V). Qed.

(* apply: for every assignment the leaf operation applied to the operands' values *)
Theorem C17_apply1_ev : forall f d s, ev (apply1 V V_eq_dec f d) s = f (ev d s).
Proof. exact (apply1_ev V V_eq_dec). Qed.
Theorem C17_apply2_ev : forall op a b s, ev (apply2 V V_eq_dec op a b) s = op (ev a s) (ev b s).
Proof. exact (apply2_ev V V_eq_dec). Qed.
Theorem C17_apply3_ev : forall op a b c s, ev (apply3 V V_eq_dec op a b c) s = op (ev a s) (ev b s) (ev c s).
Proof. exact (apply3_ev V V_eq_dec). Qed.
Theorem C17_apply1_wf : forall f d, wf d -> wf (apply1 V V_eq_dec f d).
Proof. exact (apply1_wf V V_eq_dec). Qed.
Theorem C17_apply2_wf : forall op a b, wf a -> wf b -> wf (apply2 V V_eq_dec op a b).
Proof. exact (apply2_wf V V_eq_dec). Qed.
Theorem C17_apply3_wf : forall op a b c, wf a -> wf b -> wf c -> wf (apply3 V V_eq_dec op a b c).
Proof. exact (apply3_wf V V_eq_dec). Qed.
(* the models of apply2 / apply3 are the recursion of recDescend driven by classifyCase *)
Theorem C17_apply2_recdescend : forall op a b,
  apply2 V V_eq_dec op a b =
  let '(b1, b2) := classify2 V a b in
  if negb b1 && negb b2
  then match a, b with Leaf u, Leaf v => Leaf (op u v) | _, _ => a end
  else let x := if b2 then var_of V b else var_of V a in
       mk V V_eq_dec x (apply2 V V_eq_dec op (if b1 then child_lo V a else a) (if b2 then child_lo V b else b))
                       (apply2 V V_eq_dec op (if b1 then child_hi V a else a) (if b2 then child_hi V b else b)).
Proof. exact (apply2_recdescend V V_eq_dec). Qed.
Theorem C17_apply3_recdescend : forall op a b c,
  apply3 V V_eq_dec op a b c =
  match top3 V a b c with
  | None => match a, b, c with Leaf u, Leaf v, Leaf w => Leaf (op u v w) | _, _, _ => a end
  | Some x => mk V V_eq_dec x (apply3 V V_eq_dec op (lo_at V x a) (lo_at V x b) (lo_at V x c))
                              (apply3 V V_eq_dec op (hi_at V x a) (hi_at V x b) (hi_at V x c))
  end.
Proof. exact (apply3_recdescend V V_eq_dec). Qed.
Theorem C17_classify3_children : forall a b c x, top3 V a b c = Some x ->
  let '(b1, b2, b3) := classify3 V a b c in
  lo_at V x a = (if b1 then child_lo V a else a) /\ hi_at V x a = (if b1 then child_hi V a else a) /\
  lo_at V x b = (if b2 then child_lo V b else b) /\ hi_at V x b = (if b2 then child_hi V b else b) /\
  lo_at V x c = (if b3 then child_lo V c else c) /\ hi_at V x c = (if b3 then child_hi V c else c) /\
  (b1 || b2 || b3 = true).
Proof. exact (classify3_children V). Qed.

(* canonicity: well-formed diagrams denoting the same function are the same diagram *)
Theorem C17_canonical : forall a b, wf a -> wf b -> (forall s, ev a s = ev b s) -> a = b.
Proof. exact (canonical V). Qed.
(* the equality gate: structural equality of model diagrams decides equality of the functions *)
Theorem C17_eqb_spec : forall a b, wf a -> wf b -> (dd_eqb V V_eq_dec a b = true <-> forall s, ev a s = ev b s).
Proof. exact (dd_eqb_spec V V_eq_dec). Qed.
(* two MTBDDs compare equal (operator== compares the roots) exactly when they denote the same
   function, in every store satisfying the invariant of C18 *)
Theorem C17_root_eq_iff_same_function : forall s X h1 h2 hd1 hd2,
  Core V V_eq_dec s X -> hlookup V s h1 = Some hd1 -> hlookup V s h2 = Some hd2 ->
  (root V hd1 = root V hd2 <-> forall sg, ev (ghost V hd1) sg = ev (ghost V hd2) sg).
Proof. exact (root_eq_iff_same_function V V_eq_dec). Qed.

(* projection: always the structural meaning (a removed node combines its projected children) ... *)
Theorem C17_project_ev_struct : forall pred op d s, ev (project V V_eq_dec pred op d) s = pev V pred op d s.
Proof. exact (project_ev_struct V V_eq_dec). Qed.
(* ... which for one variable and an idempotent leaf operation is the combination of the two cofactors,
   and never depends on a removed variable *)
Theorem C17_project_ev_var : forall op x d s, wf d -> (forall v, op v v = v) ->
  ev (project V V_eq_dec (fun y => y =? x) op d) s = op (ev d (upd s x false)) (ev d (upd s x true)).
Proof. exact (fun op x d s W => project_ev_var V V_eq_dec op x d s (wf_ordered V d W)). Qed.
Theorem C17_project_ev_indep : forall pred op d s t, (forall x, pred x = false -> s x = t x) ->
  ev (project V V_eq_dec pred op d) s = ev (project V V_eq_dec pred op d) t.
Proof. exact (project_ev_indep V V_eq_dec). Qed.
Theorem C17_project_wf : forall pred op d, wf d -> wf (project V V_eq_dec pred op d).
Proof. exact (project_wf V V_eq_dec). Qed.
(* renaming *)
Theorem C17_rename_ev : forall rho d s, ev (rename V rho d) s = ev d (fun x => s (rho x)).
Proof. exact (rename_ev V). Qed.
Theorem C17_rename_wf : forall rho d, (forall x y, x < y -> rho x < rho y) -> wf d -> wf (rename V rho d).
Proof. exact (rename_wf V). Qed.
(* prefix extension: above the operand's variables the prefix is tested, a mismatch gives the default *)
Theorem C17_extend_ev : forall asgn off d dflt s,
  ev (extend V V_eq_dec asgn off d dflt) s = if matches asgn 0 off s then ev d s else dflt.
Proof. exact (extend_ev V V_eq_dec). Qed.
Theorem C17_matches_refines : forall asgn i off s,
  matches asgn i off s = true <->
  forall k, (nth k asgn TX = T1 -> s (k + i + off) = true) /\ (nth k asgn TX = T0 -> s (k + i + off) = false).
Proof. exact matches_refines. Qed.
Theorem C17_extend_wf : forall asgn off d dflt, wf d -> top_lt V d off -> wf (extend V V_eq_dec asgn off d dflt).
Proof. exact (extend_wf V V_eq_dec). Qed.
(* prefix selection: variables >= off are fixed by the prefix (don't-care goes low), the rest are free *)
Theorem C17_prefix_ev : forall asgn off d s, ordered V d ->
  ev (prefix V asgn off d) s = ev d (fun x => if x <? off then s x else is_one (nth (x - off) asgn TX)).
Proof. exact (prefix_ev V). Qed.
Theorem C17_prefix_wf : forall asgn off d, wf d -> wf (prefix V asgn off d).
Proof. exact (prefix_wf V). Qed.

(* GetPaths (compared as drift): every listed path carries the value of all assignments it covers *)
Theorem C17_paths_sound : forall d, ordered V d -> forall p v, In (p, v) (paths V d) -> forall s, refines p s -> ev d s = v.
Proof. exact (paths_sound V). Qed.

(* gates evaluated on libvata's output *)
Theorem C17_dc_gate_sound : forall d a v, dc_gate V V_eq_dec d a v = true -> exists s, refines a s /\ ev d s = v.
Proof. exact (dc_gate_sound V V_eq_dec). Qed.
Theorem C17_dc_gate_model : forall d a, dc_gate V V_eq_dec d a (get_value V d a) = true.
Proof. exact (dc_gate_model V V_eq_dec). Qed.
Theorem C17_void1_gate : forall seen d, wf d ->
  (same_set V V_eq_dec seen (leaves V d) = true <-> forall v, In v seen <-> exists s, ev d s = v).
Proof. exact (fun seen d W => void1_gate V V_eq_dec seen d (wf_ordered V d W)). Qed.
Theorem C17_void2_gate : forall op seen a b, wf a -> wf b ->
  (same_set V V_eq_dec seen (leaves V (apply2 V V_eq_dec op a b)) = true <->
   forall p, In p seen <-> exists s, op (ev a s) (ev b s) = p).
Proof. exact (void2_gate V V_eq_dec). Qed.
End P.

(* the hypotheses are satisfiable: a diagram over two variables, built and combined as the package does *)
Example C17_example :
  let a := construct nat Nat.eq_dec [T1; TX] 1 0 in
  let b := construct nat Nat.eq_dec [TX; T1] 2 0 in
  let c := apply2 nat Nat.eq_dec Nat.add a b in
  wf nat c /\ c = Nd 1 (Nd 0 (Leaf 0) (Leaf 1)) (Nd 0 (Leaf 2) (Leaf 3)) /\
  apply2 nat Nat.eq_dec Nat.add b a = c /\ get_value nat c [TX; T1] = 2.
Proof. exact example_dd. Qed.

(* (A) the memo table of one apply call (keyed by the pair of operand nodes, looked up before the case split, filled after the descent):
   starting from a table whose entries are right for the operation (the empty table), every result is that of the memo-free apply2 and
   the table stays right — for every fuel *)
Theorem C17_apply2_memo_correct : forall (V : Type) (V_eq_dec : forall a b : V, {a = b} + {a <> b}) op fuel m a b m' r,
  memo_ok V V_eq_dec op m -> apply2m V V_eq_dec fuel op m a b = Some (m', r) ->
  r = apply2 V V_eq_dec op a b /\ memo_ok V V_eq_dec op m'.
Proof. exact apply2m_correct. Qed.
Theorem C17_apply2_memo_fresh : forall (V : Type) (V_eq_dec : forall a b : V, {a = b} + {a <> b}) op fuel a b m' r,
  apply2m V V_eq_dec fuel op nil a b = Some (m', r) -> r = apply2 V V_eq_dec op a b.
Proof. exact apply2m_fresh. Qed.
(* a table that survives into a call with another leaf operation is wrong: refuted *)
Theorem C17_apply2_memo_stale_refuted :
  let a := Leaf 1 in let b := Leaf 2 in
  exists m r, apply2m nat Nat.eq_dec 5 Nat.add nil a b = Some (m, r) /\
              apply2m nat Nat.eq_dec 5 Nat.mul m a b = Some (m, Leaf 3) /\ apply2 nat Nat.eq_dec Nat.mul a b = Leaf 2.
Proof. exact apply2m_stale_refuted. Qed.
Example C17_apply2_memo_example :
  let s := Nd 0 (Leaf 1) (Leaf 2) in let a := Nd 1 s s in let b := Nd 1 (Leaf 5) (Leaf 7) in
  option_map snd (apply2m nat Nat.eq_dec 10 Nat.add nil (Nd 2 a a) (Nd 2 b b)) = Some (apply2 nat Nat.eq_dec Nat.add (Nd 2 a a) (Nd 2 b b)) /\
  option_map (fun x => length (fst x)) (apply2m nat Nat.eq_dec 10 Nat.add nil (Nd 2 a a) (Nd 2 b b)) = Some 8.
Proof. exact apply2m_example. Qed.

Print Assumptions C17_construct_ev.
Print Assumptions C17_construct_wf.
Print Assumptions C17_get_value_ev.
Print Assumptions C17_get_value_member.
Print Assumptions C17_apply1_ev.
Print Assumptions C17_apply2_ev.
Print Assumptions C17_apply3_ev.
Print Assumptions C17_apply1_wf.
Print Assumptions C17_apply2_wf.
Print Assumptions C17_apply3_wf.
Print Assumptions C17_apply2_recdescend.
Print Assumptions C17_apply3_recdescend.
Print Assumptions C17_classify3_children.
Print Assumptions C17_canonical.
Print Assumptions C17_eqb_spec.
Print Assumptions C17_root_eq_iff_same_function.
Print Assumptions C17_project_ev_struct.
Print Assumptions C17_project_ev_var.
Print Assumptions C17_project_ev_indep.
Print Assumptions C17_project_wf.
Print Assumptions C17_rename_ev.
Print Assumptions C17_rename_wf.
Print Assumptions C17_extend_ev.
Print Assumptions C17_matches_refines.
Print Assumptions C17_extend_wf.
Print Assumptions C17_prefix_ev.
Print Assumptions C17_prefix_wf.
Print Assumptions C17_paths_sound.
Print Assumptions C17_dc_gate_sound.
Print Assumptions C17_dc_gate_model.
Print Assumptions C17_void1_gate.
Print Assumptions C17_void2_gate.
Print Assumptions C17_example.
Print Assumptions C17_apply2_memo_correct.
Print Assumptions C17_apply2_memo_fresh.
Print Assumptions C17_apply2_memo_stale_refuted.
Print Assumptions C17_apply2_memo_example.
