(* C02 — what the naming gates decide (names_union_prop, names_isect_prop, defined here), the boolean validity check of a pair of
   renaming maps, and the language of Union / UnionDisjointStates under it. *)
From Coq Require Import List NArith Bool.
Import ListNotations.
From V Require Import Sem Prod TrimProofs Lang BinopDefs.

Lemma ustates_in A q : In q (ustates A) <-> In q (states A).
Proof. apply nodup_In. Qed.

Lemma single_accepts A q t : accepts (with_finals [q] A) t <-> reach A t q.
Proof. rewrite with_finals_accepts. split; [intros [x [[<-|[]] X]]; auto | intros X; exists q; simpl; auto]. Qed.

Lemma same_state_lang_spec A q R s : same_state_lang A q R s = true <-> forall t, reach R t s <-> reach A t q.
Proof.
  unfold same_state_lang. rewrite equiv_dec_spec. unfold leq.
  split; intros H t; specialize (H t); rewrite !single_accepts in *; exact H.
Qed.

Definition names_union_prop (mL mR : list (N * N)) (A B R : ta) :=
  forall s, In s (states R) ->
    (exists k, In k (states A) /\ In (k, s) mL /\ forall t, reach R t s <-> reach A t k) \/
    (exists k, In k (states B) /\ In (k, s) mR /\ forall t, reach R t s <-> reach B t k).

Lemma has_pair_spec m k v : has_pair m k v = true <-> In (k, v) m.
Proof.
  unfold has_pair. rewrite existsb_exists. split.
  - intros [[k' v'] [H E]]. simpl in E. apply andb_true_iff in E as [E1 E2]. apply N.eqb_eq in E1, E2. subst; auto.
  - intros H. exists (k, v). split; auto. simpl. rewrite !N.eqb_refl. reflexivity.
Qed.

Lemma names_side_spec m A R s : existsb (fun k => has_pair m k s && same_state_lang A k R s) (ustates A) = true <->
  exists k, In k (states A) /\ In (k, s) m /\ forall t, reach R t s <-> reach A t k.
Proof.
  rewrite existsb_exists. split; intros [k H]; exists k; revert H;
    rewrite andb_true_iff, ustates_in, has_pair_spec, same_state_lang_spec; tauto.
Qed.

Theorem names_union_spec mL mR A B R : names_union mL mR A B R = true <-> names_union_prop mL mR A B R.
Proof.
  unfold names_union, names_union_prop. rewrite forallb_forall.
  split; intros H s Hs.
  - specialize (H s (proj2 (ustates_in R s) Hs)). rewrite orb_true_iff, !names_side_spec in H. exact H.
  - apply ustates_in in Hs. rewrite orb_true_iff, !names_side_spec. exact (H s Hs).
Qed.

Definition names_isect_prop (pm : list (N * N * N)) (A B R : ta) :=
  forall s, In s (states R) -> exists p q, In (p, q, s) pm /\ forall t, reach R t s <-> reach A t p /\ reach B t q.

Lemma isect_gate_single A B R p q s : isect_gate (with_finals [p] A) (with_finals [q] B) (with_finals [s] R) = true <->
  forall t, reach R t s <-> reach A t p /\ reach B t q.
Proof. rewrite isect_gate_spec. split; intros H t; specialize (H t); rewrite !single_accepts in *; exact H. Qed.

Theorem names_isect_spec pm A B R : names_isect pm A B R = true <-> names_isect_prop pm A B R.
Proof.
  unfold names_isect, names_isect_prop. rewrite forallb_forall. split.
  - intros H s Hs. specialize (H s (proj2 (ustates_in R s) Hs)). apply existsb_exists in H as [[[p q] s'] [He H]].
    apply andb_true_iff in H as [H1 H2]. apply N.eqb_eq in H1. subst s'. exists p, q. split; [exact He | apply isect_gate_single, H2].
  - intros H s Hs. apply ustates_in in Hs. destruct (H s Hs) as [p [q [He L]]]. apply existsb_exists. exists (p, q, s). split; [exact He|].
    rewrite N.eqb_refl. apply isect_gate_single, L.
Qed.

Lemma inj_onb_spec h l : inj_onb h l = true <-> inj_on h l.
Proof. exact (inj_on_forallb h l). Qed.

Lemma disjointb_spec l m : disjointb l m = true <-> disjoint l m.
Proof.
  unfold disjointb, disjoint. rewrite forallb_forall. split; intros H x Hx.
  - apply memN_false, negb_true_iff, H, Hx.
  - apply negb_true_iff, memN_false. exact (H x Hx).
Qed.

Theorem valid_unionb_spec hA hB A B : valid_unionb hA hB A B = true <-> valid_union hA hB A B.
Proof. unfold valid_unionb, valid_union. rewrite !andb_true_iff, !inj_onb_spec, disjointb_spec. tauto. Qed.

Theorem union_with_lang hA hB A B : valid_unionb hA hB A B = true ->
  forall t, accepts (union_with hA hB A B) t <-> accepts A t \/ accepts B t.
Proof. intros H. apply union_lang. apply valid_unionb_spec; auto. Qed.

Theorem union_disjoint_lang A B : disjointb (states A) (states B) = true ->
  forall t, accepts (ta_app A B) t <-> accepts A t \/ accepts B t.
Proof. intros H. apply app_lang. apply disjointb_spec; auto. Qed.

Example valid_union_example :
  let A := {| rules := [ {| sym := 0; ch := []; par := 0 |}; {| sym := 3; ch := [0%N; 0%N]; par := 1 |} ]; finals := [1%N] |} in
  let B := {| rules := [ {| sym := 1; ch := []; par := 0 |}; {| sym := 2; ch := [0%N]; par := 0 |} ]; finals := [0%N] |} in
  valid_unionb (fun k => k) (fun k => k + 2)%N A B = true /\ disjointb (states A) (states (image (fun k => k + 2)%N B)) = true.
Proof. vm_compute. split; reflexivity. Qed.
