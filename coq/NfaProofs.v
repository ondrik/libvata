(* C09 / C10 — proofs about the word-automata models of NfaDefs.v, without any hypothesis on the size or shape of the operands. *)
From Coq Require Import List NArith Bool.
Import ListNotations.
From V Require Import ListAux Fix Sem Prod TrimProofs Lang NfaDefs.
From V Require ProductProofs BinopProofs.

Lemma edge_eta (e : edge) : e = (esrc e, esym e, edst e).
Proof. destruct e as [[p a] q]; reflexivity. Qed.

Lemma nstates_in A x : In x (nstates A) <->
  In x (nstarts A) \/ In x (nfinals A) \/ exists p a q, In (p, a, q) (edges A) /\ (x = p \/ x = q).
Proof.
  unfold nstates. split; intros H.
  - apply in_app_or in H as [H|H]; auto. apply in_app_or in H as [H|H]; auto. right; right.
    apply in_flat_map in H as [[[p a] q] [He [<-|[<-|[]]]]]; exists p, a, q; auto.
  - apply in_or_app. destruct H as [H|[H|(p & a & q & He & H)]]; auto; right; apply in_or_app; auto.
    right. apply in_flat_map. exists (p, a, q). split; auto. destruct H as [->| ->]; simpl; auto.
Qed.
Lemma nstates_start A p : In p (nstarts A) -> In p (nstates A).
Proof. intros H. apply nstates_in. auto. Qed.
Lemma nstates_final A p : In p (nfinals A) -> In p (nstates A).
Proof. intros H. apply nstates_in. auto. Qed.
Lemma nstates_edge A p a q : In (p, a, q) (edges A) -> In p (nstates A) /\ In q (nstates A).
Proof. intros H. split; apply nstates_in; right; right; exists p, a, q; auto. Qed.

(* the test of HkcDefs.finb and NfaAcDefs.macc *)
Lemma existsb_final F X : existsb (fun q => memN q F) X = true <-> exists q, In q X /\ In q F.
Proof. rewrite existsb_exists. split; intros (q & H1 & H2); exists q; split; auto; apply memN_In, H2. Qed.

Lemma out_edges_in A p e : In e (out_edges A p) <-> In e (edges A) /\ esrc e = p.
Proof. unfold out_edges. rewrite filter_In, N.eqb_eq. reflexivity. Qed.

Lemma wpath_closed (S : N -> Prop) A B :
  (forall p a q, S p -> In (p, a, q) (edges A) -> In (p, a, q) (edges B) /\ S q) ->
  forall w p q, S p -> wpath A w p q -> wpath B w p q /\ S q.
Proof.
  intros C. induction w as [|a w IH]; simpl; intros p q Hp H.
  - subst; auto.
  - destruct H as [m [He H]]. destruct (C p a m Hp He) as [He' Hm]. destruct (IH m q Hm H) as [Hw Hq]. eauto.
Qed.

Lemma wpath_mono A B : incl (edges A) (edges B) -> forall w p q, wpath A w p q -> wpath B w p q.
Proof. intros Hi w p q H. apply (wpath_closed (fun _ => True) A B) with (p := p); auto. Qed.

Lemma wpath_end A : forall w p q, In p (nstates A) -> wpath A w p q -> In q (nstates A).
Proof.
  intros w p q Hp H. apply (wpath_closed (fun x => In x (nstates A)) A A) with (w := w) (p := p); auto.
  intros x a y _ He. split; auto. apply (nstates_edge A x a y He).
Qed.

Lemma wpath_snoc A w a p m q : wpath A w p m -> In (m, a, q) (edges A) -> wpath A (w ++ [a]) p q.
Proof. intros H He. apply wpath_app. exists m. split; auto. simpl. exists q. auto. Qed.

Lemma andb3_spec {a b c : bool} {P Q R : Prop} : (a = true <-> P) -> (b = true <-> Q) -> (c = true <-> R) ->
  (a && b && c = true <-> P /\ Q /\ R).
Proof. intros <- <- <-. rewrite !andb_true_iff. apply and_assoc. Qed.

Lemma edge_eqb_eq e f : edge_eqb e f = true <-> e = f.
Proof.
  destruct e as [[p a] q], f as [[p' a'] q']. unfold edge_eqb. cbn [esrc esym edst fst snd].
  rewrite (andb3_spec (N.eqb_eq p p') (N.eqb_eq a a') (N.eqb_eq q q')).
  split; [intros (-> & -> & ->); reflexivity | intros [= -> -> ->]; auto].
Qed.
Lemma memE_In e l : memE e l = true <-> In e l.
Proof. exact (existsb_eqb edge_eqb edge_eqb_eq e l). Qed.
Lemma subE_incl l m : subE l m = true <-> incl l m.
Proof. exact (forallb_mem_incl memE memE_In l m). Qed.

Lemma nfa_sub_spec A B : nfa_sub A B = true <->
  incl (nstarts A) (nstarts B) /\ incl (nfinals A) (nfinals B) /\ incl (edges A) (edges B).
Proof. exact (andb3_spec (subN_spec _ _) (subN_spec _ _) (subE_incl _ _)). Qed.

Lemma nfa_sub_trans A B C : nfa_sub A B = true -> nfa_sub B C = true -> nfa_sub A C = true.
Proof.
  intros H K. apply nfa_sub_spec in H as (H1 & H2 & H3). apply nfa_sub_spec in K as (K1 & K2 & K3).
  apply nfa_sub_spec. split; [|split]; eapply incl_tran; eauto.
Qed.

Theorem nfa_sub_lang A B : nfa_sub A B = true -> wlincl A B.
Proof.
  intros H. apply nfa_sub_spec in H as [Hs [Hf He]]. intros w [p [q [Hp [Hq Hw]]]].
  exists p, q. split; auto. split; auto. exact (wpath_mono A B He w p q Hw).
Qed.

Theorem nfa_same_lang A B : nfa_same A B = true -> forall w, waccepts A w <-> waccepts B w.
Proof. unfold nfa_same. rewrite andb_true_iff. intros [H1 H2] w. split; apply nfa_sub_lang; auto. Qed.

Lemma enc_states A x : In x (states (enc A)) -> In x (nstates A).
Proof.
  intros H. apply states_in in H as [(r & Hr & H)|H]; [|apply nstates_final, H].
  apply enc_rule in Hr as [(s & Hs & ->)|(p & a & q & He & ->)]; simpl in H.
  - destruct H as [->|[]]. apply nstates_start, Hs.
  - apply nstates_edge in He. destruct H as [->|[->|[]]]; tauto.
Qed.

Lemma enc_nimage h A : enc (nimage h A) = image h (enc A).
Proof.
  unfold enc, image. simpl. rewrite map_app, !map_map. f_equal. apply f_equal, map_ext. intros [[p a] q]. reflexivity.
Qed.

Theorem nimage_lang_inj h A : inj_on h (nstates A) -> forall w, waccepts (nimage h A) w <-> waccepts A w.
Proof.
  intros Hinj w. rewrite !enc_accepts, enc_nimage. apply image_lang_inj.
  intros x y Hx Hy. apply Hinj; apply enc_states; assumption.
Qed.

Lemma nimage_nstates h A : nstates (nimage h A) = map h (nstates A).
Proof.
  unfold nstates. simpl. rewrite !map_app. apply f_equal, f_equal.
  induction (edges A) as [|e l IH]; simpl; [|rewrite IH]; reflexivity.
Qed.

Lemma nimage_disjoint hA hB A B : disjoint (map hA (nstates A)) (map hB (nstates B)) ->
  disjoint (nstates (nimage hA A)) (nstates (nimage hB B)).
Proof. rewrite !nimage_nstates. exact (fun D => D). Qed.

Lemma napp_path_r A B : disjoint (nstates A) (nstates B) ->
  forall w p q, In p (nstates B) -> wpath (napp A B) w p q -> wpath B w p q /\ In q (nstates B).
Proof.
  intros D. apply wpath_closed. intros p a q Hp He. apply in_app_or in He as [He|He]; apply nstates_edge in He as He'.
  - destruct (D p); tauto.
  - tauto.
Qed.

Lemma wlang_mono A B X w : incl (nfinals A) (nfinals B) -> incl (edges A) (edges B) ->
  (exists p q, In p X /\ In q (nfinals A) /\ wpath A w p q) -> exists p q, In p X /\ In q (nfinals B) /\ wpath B w p q.
Proof. intros Hf He [p [q [Hp [Hq H]]]]. exists p, q. split; auto. split; auto. revert H. apply wpath_mono, He. Qed.

Lemma napp_lang_r A B : disjoint (nstates A) (nstates B) -> forall w,
  (exists p q, In p (nstarts B) /\ In q (nfinals (napp A B)) /\ wpath (napp A B) w p q) <-> waccepts B w.
Proof.
  intros D w. split; [|apply wlang_mono; apply incl_appr, incl_refl].
  intros [p [q [Hp [Hq H]]]]. exists p, q. split; [exact Hp|].
  apply napp_path_r in H as [H Hq']; [|auto|apply nstates_start, Hp]. split; auto.
  apply in_app_or in Hq as [Hq|Hq]; auto. destruct (D q); auto. apply nstates_final, Hq.
Qed.

Lemma napp_lang_l A B : disjoint (nstates A) (nstates B) -> forall w,
  (exists p q, In p (nstarts A) /\ In q (nfinals (napp A B)) /\ wpath (napp A B) w p q) <-> waccepts A w.
Proof.
  intros D w. rewrite <- (napp_lang_r B A (fun x Hb Ha => D x Ha Hb)).
  split; apply wlang_mono; (apply incl_app; [apply incl_appr | apply incl_appl]; apply incl_refl).
Qed.

Theorem napp_lang A B : disjoint (nstates A) (nstates B) ->
  forall w, waccepts (napp A B) w <-> waccepts A w \/ waccepts B w.
Proof.
  intros D w. rewrite <- (napp_lang_l A B D), <- (napp_lang_r A B D). split.
  - intros [p [q [Hp H]]]. apply in_app_or in Hp as [Hp|Hp]; [left | right]; exists p, q; auto.
  - intros [[p [q [Hp H]]]|[p [q [Hp H]]]]; exists p, q; (split; [apply in_or_app; auto | exact H]).
Qed.

Definition valid_nunion (hA hB : N -> N) (A B : nfa) :=
  inj_on hA (nstates A) /\ inj_on hB (nstates B) /\ disjoint (map hA (nstates A)) (map hB (nstates B)).

Theorem nunion_lang hA hB A B : valid_nunion hA hB A B ->
  forall w, waccepts (nunion_with hA hB A B) w <-> waccepts A w \/ waccepts B w.
Proof.
  intros [IA [IB D]] w. unfold nunion_with.
  rewrite (napp_lang _ _ (nimage_disjoint hA hB A B D)), (nimage_lang_inj hA A IA), (nimage_lang_inj hB B IB). tauto.
Qed.

Theorem nunion_disjoint_lang A B : disjoint (nstates A) (nstates B) ->
  forall w, waccepts (nunion_disjoint A B) w <-> waccepts A w \/ waccepts B w.
Proof. exact (napp_lang A B). Qed.

Lemma valid_nunionb_spec hA hB A B : valid_nunionb hA hB A B = true <-> valid_nunion hA hB A B.
Proof. exact (andb3_spec (BinopProofs.inj_onb_spec _ _) (BinopProofs.inj_onb_spec _ _) (BinopProofs.disjointb_spec _ _)). Qed.

(* UnionDisjointStates as coded coincides with the concatenation on disjoint operands *)
Lemma nunion_coded_disjoint A B : disjoint (nstates A) (nstates B) ->
  edges (nunion_disjoint_coded A B) = edges (napp A B).
Proof.
  intros D. simpl. f_equal. apply filter_all. intros e He.
  destruct (memN (esrc e) (map esrc (edges A))) eqn:E; auto. exfalso.
  apply memN_In, in_map_iff in E as [f [E Hf]]. rewrite (edge_eta f) in Hf. rewrite (edge_eta e) in He.
  apply nstates_edge in Hf as [Hf _]. apply nstates_edge in He as [He _]. rewrite E in Hf. eapply D; eauto.
Qed.

Lemma nreverse_edge A p a q : In (q, a, p) (edges (nreverse A)) <-> In (p, a, q) (edges A).
Proof.
  simpl. rewrite in_map_iff. split.
  - intros [[[x b] y] [[= <- <- <-] He]]. exact He.
  - intros He. exists (p, a, q). auto.
Qed.

Lemma nreverse_path A : forall w p q, wpath (nreverse A) w q p <-> wpath A (rev w) p q.
Proof.
  induction w as [|a w IH]; simpl; intros p q.
  - split; congruence.
  - rewrite wpath_app. split.
    + intros [m [He H]]. apply (nreverse_edge A) in He. exists m. split; [apply IH; auto|]. simpl. exists q. auto.
    + intros [m [H [m' [He <-]]]]. exists m. split; [apply nreverse_edge; auto | apply IH; auto].
Qed.

Theorem nreverse_lang A w : waccepts (nreverse A) w <-> waccepts A (rev w).
Proof.
  unfold waccepts. simpl. split; intros [p [q [Hp [Hq H]]]]; exists q, p; (split; [auto|]); (split; [auto|]);
    apply nreverse_path; auto.
Qed.

Lemma nreverse_states A x : In x (nstates (nreverse A)) -> In x (nstates A).
Proof.
  intros H. apply nstates_in. apply nstates_in in H as [H|[H|[p [a [q [He H]]]]]]; auto.
  apply (nreverse_edge A) in He. right; right. exists q, a, p. tauto.
Qed.

Definition nreachable (A : nfa) (q : N) := exists p w, In p (nstarts A) /\ wpath A w p q.

Lemma nreachable_start A p : In p (nstarts A) -> nreachable A p.
Proof. intros H. exists p, []. simpl. auto. Qed.
Lemma nreachable_step A p a q : nreachable A p -> In (p, a, q) (edges A) -> nreachable A q.
Proof. intros [s [w [Hs Hw]]] He. exists s, (w ++ [a]). split; auto. eapply wpath_snoc; eauto. Qed.

Lemma nreach_step_in A S x : In x (nreach_step A S) <->
  In x (nstarts A) \/ exists p a, In (p, a, x) (edges A) /\ In p S.
Proof.
  unfold nreach_step. rewrite in_app_iff, in_flat_map_if. setoid_rewrite memN_In. apply or_iff_compat_l. split.
  - intros (e & He & Hp & [<-|[]]). exists (esrc e), (esym e). rewrite <- edge_eta. auto.
  - intros (p & a & He & Hp). exists (p, a, x). simpl. auto.
Qed.
Lemma nreach_step_mono A S T : incl S T -> incl (nreach_step A S) (nreach_step A T).
Proof.
  intros H x Hx. apply nreach_step_in in Hx. apply nreach_step_in. destruct Hx as [Hx|[p [a [He Hp]]]]; auto.
  right. exists p, a. auto.
Qed.
Lemma nreach_step_bounded A S : incl (nreach_step A S) (nstates A).
Proof.
  intros x Hx. apply nreach_step_in in Hx. destruct Hx as [Hx|[p [a [He _]]]].
  - apply nstates_start; auto.
  - apply nstates_edge in He. tauto.
Qed.

Theorem nreach_spec A q : In q (nreach A) <-> nreachable A q.
Proof.
  unfold nreach. rewrite (saturate_lfp N N.eq_dec (nreach_step A) (nreach_step_mono A) (nstates A) (fun S _ => nreach_step_bounded A S)).
  split.
  - intros D. induction D as [S x _ IH Hx]. apply nreach_step_in in Hx as [Hx|[p [a [He Hp]]]].
    + apply nreachable_start, Hx.
    + eapply nreachable_step; eauto.
  - intros [p [w [Hp Hw]]]. apply (wpath_closed (Der N (nreach_step A)) A A) in Hw as [_ Hq]; [exact Hq| |].
    + intros x a y Hx He. split; auto.
      apply (der N (nreach_step A) [x]). intros z [<-|[]]; auto. apply nreach_step_in. right. exists x, a. simpl; auto.
    + apply (der N (nreach_step A) []). intros y []. apply nreach_step_in. auto.
Qed.

Lemma nunreach_edge A p a q : In (p, a, q) (edges (nunreach A)) <-> In (p, a, q) (edges A) /\ nreachable A p.
Proof. simpl. rewrite filter_In, memN_In, nreach_spec. reflexivity. Qed.
Lemma nunreach_final A q : In q (nfinals (nunreach A)) <-> In q (nfinals A) /\ nreachable A q.
Proof. simpl. rewrite filter_In, memN_In, nreach_spec. reflexivity. Qed.

Lemma nunreach_path A : forall w p q, nreachable A p -> wpath A w p q -> wpath (nunreach A) w p q /\ nreachable A q.
Proof.
  apply wpath_closed. intros p a q Hp He. split; [apply nunreach_edge; auto | eapply nreachable_step; eauto].
Qed.

Lemma nunreach_sub A : nfa_sub (nunreach A) A = true.
Proof. apply nfa_sub_spec. simpl. split; [apply incl_refl|]. split; apply incl_filter. Qed.

Theorem nunreach_lang A w : waccepts (nunreach A) w <-> waccepts A w.
Proof.
  split; [apply nfa_sub_lang, nunreach_sub|].
  intros [p [q [Hp [Hq H]]]]. apply nunreach_path in H as [H Hr]; [|apply nreachable_start, Hp].
  exists p, q. split; auto. split; auto. apply nunreach_final. auto.
Qed.

Lemma nunreach_states A x : In x (nstates (nunreach A)) -> nreachable A x.
Proof.
  intros H. apply nstates_in in H as [H|[H|[p [a [q [He H]]]]]].
  - apply nreachable_start, H.
  - apply nunreach_final in H. tauto.
  - apply nunreach_edge in He as [He Hp]. destruct H as [->| ->]; auto. eapply nreachable_step; eauto.
Qed.

Theorem nuseless_lang A w : waccepts (nuseless A) w <-> waccepts A w.
Proof.
  unfold nuseless. rewrite nreverse_lang, nunreach_lang, nreverse_lang, rev_involutive, nunreach_lang. tauto.
Qed.

Lemma nimage_lincl hA hB A B : inj_on hA (nstates A) -> inj_on hB (nstates B) ->
  (wlincl (nimage hA A) (nimage hB B) <-> wlincl A B).
Proof. intros IA IB. split; intros H w Hw; apply (nimage_lang_inj hB B IB), H, (nimage_lang_inj hA A IA), Hw. Qed.

Lemma nuseless_lincl A B : wlincl (nuseless A) (nuseless B) <-> wlincl A B.
Proof. unfold wlincl. split; intros H w Hw; apply nuseless_lang, H, nuseless_lang, Hw. Qed.

Lemma nuseless_sub A : nfa_sub (nuseless A) A = true.
Proof.
  apply nfa_sub_spec. unfold nuseless. split; [apply incl_filter|]. split; [apply incl_filter|].
  intros [[p a] q] He. apply (nreverse_edge _ q a p), nunreach_edge in He as [He _].
  apply (nreverse_edge _ p a q), nunreach_edge in He. tauto.
Qed.

Definition nuseful (A : nfa) (x : N) :=
  (exists p w, In p (nstarts A) /\ wpath A w p x) /\ (exists q w, In q (nfinals A) /\ wpath A w x q).

(* a state of the result is a state of the second trimming, hence reachable in the mirror image of the first *)
Theorem nuseless_useful A x : In x (nstates (nuseless A)) -> nuseful A x.
Proof.
  intros H. apply nreverse_states, nunreach_states in H as [f [w [Hf Hw]]].
  apply nunreach_final in Hf as Hf'. split.
  - apply nunreach_states, nreverse_states. revert Hw. apply wpath_end, nstates_start, Hf.
  - exists f, (rev w). split; [tauto|]. apply nreverse_path in Hw. revert Hw. apply wpath_mono, incl_filter.
Qed.

Definition inj2_on (pr : N -> N -> N) (la lb : list N) :=
  forall p p' q q', In p la -> In p' la -> In q lb -> In q' lb -> pr p q = pr p' q' -> p = p' /\ q = q'.

Lemma nprod_edge pr A B p p' q q' a : In (p, a, p') (edges A) -> In (q, a, q') (edges B) ->
  In (pr p q, a, pr p' q') (edges (nprod_full pr A B)).
Proof.
  intros He Hf. apply in_flat_map. exists (p, a, p'). split; auto. apply in_flat_map. exists (q, a, q'). split; auto.
  cbn [esym esrc edst fst snd]. rewrite N.eqb_refl. left; reflexivity.
Qed.
Lemma nprod_edge_inv pr A B x a y : In (x, a, y) (edges (nprod_full pr A B)) ->
  exists p p' q q', In (p, a, p') (edges A) /\ In (q, a, q') (edges B) /\ x = pr p q /\ y = pr p' q'.
Proof.
  intros H. apply in_flat_map in H as ([[p b] p'] & He & H). apply in_flat_map in H as ([[q c] q'] & Hf & H).
  cbn [esym esrc edst fst snd] in H. destruct (N.eqb_spec b c) as [<-|E]; [|destruct H].
  destruct H as [[= <- <- <-]|[]]. exists p, p', q, q'. auto.
Qed.

Lemma nprod_pair (pr : N -> N -> N) (la lb : list N) (x : N) : In x (flat_map (fun p => map (pr p) lb) la) <-> exists p q, In p la /\ In q lb /\ x = pr p q.
Proof.
  rewrite in_flat_map. split.
  - intros [p [Hp H]]. apply in_map_iff in H as [q [<- Hq]]. exists p, q. auto.
  - intros [p [q [Hp [Hq ->]]]]. exists p. split; auto. apply in_map; auto.
Qed.

Lemma nprod_path pr A B : forall w p p' q q', wpath A w p p' -> wpath B w q q' ->
  wpath (nprod_full pr A B) w (pr p q) (pr p' q').
Proof.
  induction w as [|a w IH]; simpl; intros p p' q q' H1 H2.
  - congruence.
  - destruct H1 as [m1 [He1 H1]]. destruct H2 as [m2 [He2 H2]]. exists (pr m1 m2). split; [|apply IH; auto].
    apply nprod_edge; auto.
Qed.

Lemma nprod_path_inv pr A B : inj2_on pr (nstates A) (nstates B) ->
  forall w p q p' q', In p (nstates A) -> In q (nstates B) -> In p' (nstates A) -> In q' (nstates B) ->
  wpath (nprod_full pr A B) w (pr p q) (pr p' q') -> wpath A w p p' /\ wpath B w q q'.
Proof.
  intros Hinj. induction w as [|a w IH]; simpl; intros p q p' q' Hp Hq Hp' Hq' H.
  - exact (Hinj p p' q q' Hp Hp' Hq Hq' H).
  - destruct H as [m [He H]]. apply nprod_edge_inv in He as [p1 [m1 [q1 [m2 [He1 [He2 [E ->]]]]]]].
    destruct (nstates_edge _ _ _ _ He1) as [Hp1 Hm1]. destruct (nstates_edge _ _ _ _ He2) as [Hq1 Hm2].
    destruct (Hinj p p1 q q1 Hp Hp1 Hq Hq1 E) as [-> ->].
    destruct (IH m1 m2 p' q' Hm1 Hm2 Hp' Hq' H) as [H1 H2]. split; [exists m1 | exists m2]; auto.
Qed.

Theorem nprod_lang pr A B : inj2_on pr (nstates A) (nstates B) ->
  forall w, waccepts (nprod_full pr A B) w <-> waccepts A w /\ waccepts B w.
Proof.
  intros Hinj w. split.
  - intros [x [y [Hx [Hy H]]]]. apply nprod_pair in Hx as [p [q [Hp [Hq ->]]]]. apply nprod_pair in Hy as [p' [q' [Hp' [Hq' ->]]]].
    apply (nprod_path_inv pr A B Hinj) in H as [H1 H2]; auto using nstates_start, nstates_final.
    split; [exists p, p' | exists q, q']; auto.
  - intros [[p [p' [Hp [Hp' H1]]]] [q [q' [Hq [Hq' H2]]]]]. exists (pr p q), (pr p' q').
    split; [apply nprod_pair; exists p, q; auto|]. split; [apply nprod_pair; exists p', q'; auto|].
    apply nprod_path; auto.
Qed.

Theorem nisect_lang pr A B : inj2_on pr (nstates A) (nstates B) ->
  forall w, waccepts (nisect pr A B) w <-> waccepts A w /\ waccepts B w.
Proof. intros Hinj w. unfold nisect. rewrite nuseless_lang, nunreach_lang. apply nprod_lang; auto. Qed.

Lemma inj2_onb_sound pr la lb : inj2_onb pr la lb = true -> inj2_on pr la lb.
Proof.
  unfold inj2_onb, inj2_on. rewrite forallb_forall. intros H p p' q q' Hp Hp' Hq Hq' E.
  specialize (H (p, q) (in_prod _ _ _ _ Hp Hq)). rewrite forallb_forall in H.
  specialize (H (p', q') (in_prod _ _ _ _ Hp' Hq')). simpl in H. rewrite E, N.eqb_refl in H. simpl in H.
  apply andb_true_iff in H as [H1 H2]. apply N.eqb_eq in H1, H2. auto.
Qed.

Lemma pr0_inj A B : inj2_on (pr0 (nbound B)) (nstates A) (nstates B).
Proof.
  intros p p' q q' _ _ Hq Hq'.
  apply (ProductProofs.pcode_inj (nbound B) p q p' q'); apply (ProductProofs.bound_gt (nstates B)); assumption.
Qed.

Lemma wis_empty_false A : wis_empty A = false <-> exists w, waccepts A w.
Proof.
  unfold wis_empty. rewrite nonempty_spec. split.
  - intros [t Ht]. apply enc_accepts_inv in Ht as (w & _ & Hw). exists w. exact Hw.
  - intros [w Hw]. exists (wtree (rev w)). apply enc_accepts, Hw.
Qed.

Lemma implb_empty_spec R A : implb (wis_empty R) (wis_empty A) = true <->
  ((exists w, waccepts A w) -> exists w, waccepts R w).
Proof. rewrite <- !wis_empty_false. destruct (wis_empty R), (wis_empty A); simpl; intuition congruence. Qed.

Theorem gate_nunion_spec A B R : gate_nunion A B R = true <->
  forall w, waccepts R w <-> waccepts A w \/ waccepts B w.
Proof.
  unfold gate_nunion. rewrite (andb3_spec (wincl_dec_spec A R) (wincl_dec_spec B R) (wincl_dec_spec R _)). unfold wlincl.
  pose proof (nunion_lang d0 d1 A B (d01_valid _ _)) as U. split.
  - intros (H1 & H2 & H3) w. split; [intros Hw; apply U; auto | intros [H|H]; auto].
  - intros H. repeat split; intros w Hw; [apply H; auto | apply H; auto | apply U, H; auto].
Qed.

Lemma nprod0_lang A B w : waccepts (nuseless (nprod_full (pr0 (nbound B)) A B)) w <-> waccepts A w /\ waccepts B w.
Proof. rewrite nuseless_lang. apply nprod_lang, pr0_inj. Qed.

Theorem gate_nisect_spec A B R : gate_nisect A B R = true <->
  forall w, waccepts R w <-> waccepts A w /\ waccepts B w.
Proof.
  unfold gate_nisect. rewrite (andb3_spec (wincl_dec_spec R A) (wincl_dec_spec R B) (wincl_dec_spec _ R)). unfold wlincl. split.
  - intros (H1 & H2 & H3) w. split; [intros Hw; split; auto | intros H; apply H3, nprod0_lang; auto].
  - intros H. repeat split; intros w Hw; [apply H; auto | apply H; auto | apply H, nprod0_lang; auto].
Qed.

Theorem gate_nreverse_spec A R : gate_nreverse A R = true <-> forall w, waccepts R w <-> waccepts A (rev w).
Proof.
  unfold gate_nreverse. rewrite wequiv_dec_spec. split; intros H w; rewrite H; [|symmetry]; apply nreverse_lang.
Qed.

Theorem gate_nsame_spec A R : gate_nsame A R = true <-> forall w, waccepts R w <-> waccepts A w.
Proof. apply wequiv_dec_spec. Qed.

Theorem gate_ncandidate_spec A R : gate_ncandidate A R = true <->
  wlincl R A /\ ((exists w, waccepts A w) -> exists w, waccepts R w).
Proof. unfold gate_ncandidate. rewrite andb_true_iff, wincl_dec_spec, implb_empty_spec. tauto. Qed.

Theorem ncandidate_sub A R : ncandidate_ok A R = true -> wlincl R A.
Proof. unfold ncandidate_ok. rewrite andb_true_iff. intros [H _]. apply nfa_sub_lang; auto. Qed.
Theorem ncandidate_nonempty A R : ncandidate_ok A R = true -> (exists w, waccepts A w) -> exists w, waccepts R w.
Proof. unfold ncandidate_ok. rewrite andb_true_iff, implb_empty_spec. tauto. Qed.
Theorem ncandidate_ok_gate A R : ncandidate_ok A R = true -> gate_ncandidate A R = true.
Proof. intros H. apply gate_ncandidate_spec. split; [eapply ncandidate_sub | eapply ncandidate_nonempty]; eauto. Qed.

(* the models pass the gates, i.e. the properties the check evaluates on libvata's output (an implementation agreeing with the model is accepted) *)
Theorem model_nunion_passes hA hB A B : valid_nunion hA hB A B -> gate_nunion A B (nunion_with hA hB A B) = true.
Proof. intros V. apply gate_nunion_spec, nunion_lang, V. Qed.
Theorem model_nisect_passes pr A B : inj2_on pr (nstates A) (nstates B) -> gate_nisect A B (nisect pr A B) = true.
Proof. intros V. apply gate_nisect_spec, nisect_lang, V. Qed.
Theorem model_nreverse_passes A : gate_nreverse A (nreverse A) = true.
Proof. apply gate_nreverse_spec. intros w. apply nreverse_lang. Qed.
Theorem model_nunreach_passes A : gate_nsame A (nunreach A) = true.
Proof. apply gate_nsame_spec. intros w. apply nunreach_lang. Qed.
Theorem model_nuseless_passes A : gate_nsame A (nuseless A) = true.
Proof. apply gate_nsame_spec. intros w. apply nuseless_lang. Qed.

(* the models of the code as it was before the repairing commits (defects D7, D13 of DESIGN.md) *)
Definition wA_astar : nfa := {| nstarts := [0%N]; nfinals := [0%N]; edges := [(0, 0, 0)%N] |}.
Definition wA_aplus : nfa := {| nstarts := [0%N]; nfinals := [1%N]; edges := [(0, 0, 1)%N; (1, 0, 1)%N] |}.
Definition wA_eps : nfa := {| nstarts := [0%N]; nfinals := [0%N]; edges := [] |}.

(* D7: a* ∩ a+ accepted the empty word; {ε} ∩ {ε} was empty *)
Theorem nisect_old_refuted :
  (exists A B, gate_nisect A B (nisect_old (pr0 (nbound B)) A B) = false /\ wincl_dec (nisect_old (pr0 (nbound B)) A B) B = false) /\
  (exists A B, gate_nisect A B (nisect_old (pr0 (nbound B)) A B) = false /\ wis_empty (nisect_old (pr0 (nbound B)) A B) = true).
Proof.
  split; [exists wA_astar, wA_aplus | exists wA_eps, wA_eps]; split; vm_compute; reflexivity.
Qed.
Example nisect_witnesses_pass :
  gate_nisect wA_astar wA_aplus (nisect (pr0 (nbound wA_aplus)) wA_astar wA_aplus) = true /\
  gate_nisect wA_eps wA_eps (nisect (pr0 (nbound wA_eps)) wA_eps wA_eps) = true.
Proof. split; vm_compute; reflexivity. Qed.

(* D13: the search never marked a final start state final: the witness of {ε} was empty *)
Theorem ncandidate_old_refuted : exists A, gate_ncandidate A (ncandidate_old A) = false /\ wis_empty A = false.
Proof. exists wA_eps. split; vm_compute; reflexivity. Qed.
Example ncandidate_witness_passes : ncandidate_ok wA_eps (ncandidate wA_eps) = true.
Proof. vm_compute. reflexivity. Qed.

Lemma lincl_union {X} (P Q U : X -> Prop) : (forall w, U w <-> P w \/ Q w) ->
  ((forall w, P w -> Q w) <-> forall w, U w <-> Q w).
Proof.
  intros HU. split.
  - intros H w. rewrite HU. split; [intros [X0|X0]; auto | auto].
  - intros H w Hw. apply H, HU. auto.
Qed.

Theorem wincl_model_exact v A B : wincl_model v A B = true <-> wlincl A B.
Proof.
  rewrite <- nuseless_lincl. destruct v; simpl; [apply wincl_dec_spec | |];
    rewrite wequiv_dec_spec; symmetry; apply lincl_union, nunion_lang, d01_valid.
Qed.

Lemma wverdict_refines A B b : (b = true <-> wlincl A B) -> b = wincl_dec A B.
Proof. intros H. apply eq_true_iff_eq. rewrite H. symmetry. apply wincl_dec_spec. Qed.

Theorem wincl_model_is_dec v A B : wincl_model v A B = wincl_dec A B.
Proof. apply wverdict_refines, wincl_model_exact. Qed.

Theorem wincl_model_agree v v' A B : wincl_model v A B = wincl_model v' A B.
Proof. rewrite !wincl_model_is_dec. reflexivity. Qed.

Theorem gate_verdict_spec A B v : gate_verdict A B v = true <-> (v = true <-> wlincl A B).
Proof. apply eqb_true_spec, wincl_dec_spec. Qed.

(* inclusion reduces to equivalence of the disjoint union with the bigger automaton
   (what the congruence selections decide after the repair of defect D6) *)
Theorem congr_operands_ok A B : disjoint (nstates A) (nstates B) ->
  (wlincl A B <-> forall w, waccepts (nunion_disjoint A B) w <-> waccepts B w).
Proof. intros D. apply lincl_union, napp_lang, D. Qed.

(* D6: with the union built from the unsanitized operands a start state of the smaller automaton and a
   final state of the bigger one that share a number make the union accept the empty word *)
Theorem congr_operands_refuted : exists A B, wincl_congr_old A B = false /\ wincl_dec A B = true.
Proof.
  exists {| nstarts := [0%N]; nfinals := []; edges := [] |}, {| nstarts := []; nfinals := [0%N]; edges := [] |}.
  split; vm_compute; reflexivity.
Qed.
