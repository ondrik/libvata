(* The reference decision procedure for language inclusion: the subset construction of B run against single states of A.
   A macro pair (q, S) is a state q of A with the set S of all states of B that some tree reaching q in A reaches in B
   ([macro_reach_spec]); L(A) <= L(B) iff every macro pair with q final has a final state in S ([incl_dec_spec]). *)
From Coq Require Import List NArith Bool Arith Lia.
Import ListNotations.
From V Require Import ListAux Fix Sem Prod.

Definition QB (B : ta) : list N := nodup N.eq_dec (states B).
Lemma QB_in B q : In q (QB B) <-> In q (states B).
Proof. unfold QB. apply nodup_In. Qed.

Definition evalset (B : ta) (t : tree) : list N := filter (fun p => memN p (eval B t)) (QB B).

Definition fires (B : ta) (f : N) (Ss : list (list N)) (p : N) : bool :=
  existsb (fun r => N.eqb (sym r) f && matches (ch r) Ss && N.eqb (par r) p) (rules B).
Definition postB (B : ta) (f : N) (Ss : list (list N)) : list N := filter (fires B f Ss) (QB B).

Lemma evalset_in B t p : In p (evalset B t) <-> reach B t p.
Proof. unfold evalset. rewrite filter_In, memN_In, eval_spec, QB_in. split; [tauto|]. intros R; split; auto. eapply reach_state; eauto. Qed.

Lemma evalset_mem B t q : memN q (evalset B t) = memN q (eval B t).
Proof. apply eq_true_iff_eq. rewrite !memN_In, evalset_in, eval_spec. reflexivity. Qed.

Lemma existsb_evalset_reach B t F : existsb (fun q => memN q F) (evalset B t) = true <-> exists q, In q F /\ reach B t q.
Proof. rewrite existsb_exists. split; intros (q & H1 & H2); exists q; rewrite memN_In, evalset_in in *; auto. Qed.

Lemma matches_evalset B : forall qs ts, matches qs (map (evalset B) ts) = matches qs (map (eval B) ts).
Proof. induction qs as [|q qs IH]; intros [|t ts]; simpl; auto. rewrite IH, evalset_mem. reflexivity. Qed.

Lemma fires_spec B f Ss p : fires B f Ss p = true <->
  exists r, In r (rules B) /\ sym r = f /\ matches (ch r) Ss = true /\ par r = p.
Proof.
  unfold fires. rewrite existsb_exists. split; intros (r & Hr & H); exists r; split; auto.
  - rewrite !andb_true_iff, !N.eqb_eq in H. tauto.
  - destruct H as (-> & -> & ->). rewrite !N.eqb_refl. auto.
Qed.

Lemma postB_eval B f ts : postB B f (map (evalset B) ts) = evalset B (Node f ts).
Proof.
  apply filter_ext_in. intros p Hp. apply eq_true_iff_eq. rewrite fires_spec, memN_In, eval_in.
  split; intros (r & Hr & Hs & M & Hpar); exists r; repeat split; auto;
    [rewrite <- matches_evalset | rewrite matches_evalset]; auto.
Qed.

Lemma postB_in B f Ss p : In p (postB B f Ss) <->
  In p (states B) /\ exists r, In r (rules B) /\ sym r = f /\ Forall2 (fun c S => In c S) (ch r) Ss /\ par r = p.
Proof. unfold postB. rewrite filter_In, QB_in, fires_spec. setoid_rewrite matches_spec. reflexivity. Qed.

Definition mp := (N * list N)%type.
Definition mp_eq_dec : forall x y : mp, {x = y} + {x <> y}.
Proof. decide equality; [apply (list_eq_dec N.eq_dec) | apply N.eq_dec]. Defined.

Definition lookup (R : list mp) (q : N) : list (list N) := map snd (filter (fun p => N.eqb (fst p) q) R).
Lemma lookup_in R q S : In S (lookup R q) <-> In (q, S) R.
Proof. unfold lookup. rewrite in_map_iff. split.
  - intros [[q' S'] [E H]]. simpl in E; subst. apply filter_In in H as [H E]. simpl in E. apply N.eqb_eq in E. subst; auto.
  - intros H. exists (q, S). split; auto. apply filter_In. split; auto. simpl. apply N.eqb_refl. Qed.

Fixpoint choices (R : list mp) (qs : list N) : list (list (list N)) :=
  match qs with
  | [] => [[]]
  | q :: qs' => flat_map (fun S => map (cons S) (choices R qs')) (lookup R q)
  end.
Lemma choices_in R : forall qs Ss, In Ss (choices R qs) <-> Forall2 (fun q S => In (q, S) R) qs Ss.
Proof.
  induction qs as [|q qs IH]; intros Ss; simpl.
  - split; [intros [<-|[]]; constructor | intros H; inversion H; auto].
  - rewrite in_flat_map. split.
    + intros [S [HS H]]. apply in_map_iff in H as [Ss' [<- H]]. constructor; [apply lookup_in; auto | apply IH; auto].
    + intros H. inversion H as [|? S ? Ss' H1 H2]; subst. exists S. split; [apply lookup_in; auto|].
      apply in_map_iff. exists Ss'. split; auto. apply IH; auto.
Qed.

(* one round of the subset construction over an arbitrary post function g: [mstep] below is the instance at [postB B],
   AntichainUpSim.v uses the one that also minimises the macro-state *)
Definition gstep (A : ta) (g : N -> list (list N) -> list N) (R : list mp) : list mp :=
  flat_map (fun r => map (fun Ms => (par r, g (sym r) Ms)) (choices R (ch r))) (rules A).
Lemma gstep_in A g R y : In y (gstep A g R) <->
  exists r Ms, In r (rules A) /\ Forall2 (fun q M => In (q, M) R) (ch r) Ms /\ y = (par r, g (sym r) Ms).
Proof.
  unfold gstep. rewrite in_flat_map. split.
  - intros [r [Hr H]]. apply in_map_iff in H as [Ms [<- H]]. exists r, Ms. split; auto. split; auto. apply choices_in; auto.
  - intros [r [Ms [Hr [H ->]]]]. exists r. split; auto. apply in_map_iff. exists Ms. split; auto. apply choices_in; auto.
Qed.
Lemma gstep_mono A g S T : incl S T -> incl (gstep A g S) (gstep A g T).
Proof.
  intros I y Hy. apply gstep_in in Hy as [r [Ms [Hr [F ->]]]]. apply gstep_in. exists r, Ms. split; auto. split; auto.
  eapply Forall2_impl; [|exact F]. intros q M. apply I.
Qed.

Definition mstep (A B : ta) (R : list mp) : list mp :=
  flat_map (fun r => map (fun Ss => (par r, postB B (sym r) Ss)) (choices R (ch r))) (rules A).
Lemma mstep_in A B R x : In x (mstep A B R) <->
  exists r Ss, In r (rules A) /\ Forall2 (fun q S => In (q, S) R) (ch r) Ss /\ x = (par r, postB B (sym r) Ss).
Proof. exact (gstep_in A (postB B) R x). Qed.

Fixpoint sublists (l : list N) : list (list N) :=
  match l with [] => [[]] | x :: r => map (cons x) (sublists r) ++ sublists r end.
Lemma filter_sublist p : forall l, In (filter p l) (sublists l).
Proof. induction l as [|x l IH]; simpl; auto. destruct (p x); apply in_or_app; [left; apply in_map; auto | right; auto]. Qed.

Definition universe (A B : ta) : list mp := list_prod (states A) (sublists (QB B)).
Lemma mstep_bounded A B S : incl (mstep A B S) (universe A B).
Proof. intros x Hx. apply mstep_in in Hx as [r [Ss [Hr [_ ->]]]]. apply in_prod; [apply rule_states; auto | apply filter_sublist]. Qed.

Lemma sublists_length l : length (sublists l) = 2 ^ length l.
Proof. induction l as [|x l IH]; simpl; auto. rewrite app_length, map_length, IH. lia. Qed.

Lemma universe_fuel A B : S (length (universe A B)) <= 2 ^ (length (states A) + length (QB B)).
Proof.
  unfold universe, mp. rewrite prod_length, sublists_length, Nat.pow_add_r.
  set (a := length (states A)). set (p := 2 ^ length (QB B)).
  assert (Ha : a < 2 ^ a) by (apply Nat.pow_gt_lin_r; lia).
  assert (Hp : 1 <= p) by (unfold p; clear; induction (length (QB B)); simpl; lia).
  nia.
Qed.

(* 2^(|Q_A| + |Q_B|) rounds, nested (logarithmic fuel); the iteration stops at the fixpoint *)
Definition macro_reach (A B : ta) : list mp :=
  saturate2 mp mp_eq_dec (mstep A B) (length (states A) + length (QB B)) [].

Lemma macro_reach_der A B x : In x (macro_reach A B) <-> Der mp (mstep A B) x.
Proof. exact (saturate2_lfp mp mp_eq_dec (mstep A B) (gstep_mono A (postB B)) (universe A B) (fun S _ => mstep_bounded A B S) _ (universe_fuel A B) x). Qed.

Lemma mstep_der A B r Ss : In r (rules A) -> Forall2 (fun q S => Der mp (mstep A B) (q, S)) (ch r) Ss ->
  Der mp (mstep A B) (par r, postB B (sym r) Ss).
Proof.
  intros Hr F. apply (der mp (mstep A B) (combine (ch r) Ss)).
  - intros [q S] Hin. exact (Forall2_combine_In _ _ _ _ _ F Hin).
  - apply mstep_in. exists r, Ss. split; auto. split; auto. eapply Forall2_combine, F.
Qed.

Theorem macro_reach_spec A B q S : In (q, S) (macro_reach A B) <-> exists t, reach A t q /\ S = evalset B t.
Proof.
  rewrite macro_reach_der. split.
  - intros D. remember (q, S) as x eqn:Ex. revert q S Ex. induction D as [R x _ IH Hx]. intros q S ->.
    apply mstep_in in Hx as (r & Ss & Hr & F & [= -> ->]).
    assert (X : exists ts, Forall2 (reach A) ts (ch r) /\ Ss = map (evalset B) ts).
    { clear Hr. induction F as [|c S0 cs Ss0 H F IH2]; [exists []; split; constructor|].
      destruct (IH (c, S0) H c S0 eq_refl) as (t & Ht & ->). destruct IH2 as (ts & Hts & ->).
      exists (t :: ts). split; [constructor; auto | reflexivity]. }
    destruct X as (ts & Hts & ->). exists (Node (sym r) ts). split; [constructor; auto | apply postB_eval].
  - intros (t & Ht & ->). revert t q Ht. apply reach_ind'. intros f ts r Hr <- _ IH.
    rewrite <- postB_eval. apply mstep_der; auto. apply Forall2_flip, Forall2_map_l, IH.
Qed.

Lemma macro_forall A B (f : mp -> bool) :
  forallb f (macro_reach A B) = true <-> forall t q, reach A t q -> f (q, evalset B t) = true.
Proof.
  rewrite forallb_forall. split.
  - intros H t q R. apply H, macro_reach_spec. eauto.
  - intros H [q S] Hin. apply macro_reach_spec in Hin as (t & R & ->). auto.
Qed.

Definition incl_dec (A B : ta) : bool :=
  forallb (fun p : mp => implb (memN (fst p) (finals A)) (existsb (fun q => memN q (finals B)) (snd p))) (macro_reach A B).

Definition lincl A B := forall t, accepts A t -> accepts B t.

Theorem incl_dec_spec A B : incl_dec A B = true <-> lincl A B.
Proof.
  unfold incl_dec, lincl, accepts. rewrite macro_forall. simpl. split.
  - intros H t (q & Hq & R). apply existsb_evalset_reach. specialize (H t q R). apply memN_In in Hq. rewrite Hq in H. exact H.
  - intros H t q R. destruct (memN q (finals A)) eqn:E; auto. apply memN_In in E. apply existsb_evalset_reach, H. eauto.
Qed.
Print Assumptions incl_dec_spec.
