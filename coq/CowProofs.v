(* C11: the copy-on-write heap model refines the value model, for all histories. *)
From Coq Require Import List NArith Bool Lia PeanoNat.
Import ListNotations.
From V Require Import Sem StoreDefs StoreProofs ValueDefs ValueProofs CowDefs.

Lemma get_put {V} k (v : V) l k' : get k' (put k v l) = if N.eqb k' k then Some v else get k' l.
Proof. exact (get_upd k v (fun _ => v) l k'). Qed.
Lemma In_put {V} k (v : V) l e : In e (put k v l) -> (k, v) = e \/ In e l.
Proof.
  unfold put. induction l as [|[k0 v0] l IH]; simpl; [intros [H|[]]; auto|].
  destruct (N.eqb_spec k k0) as [<-|]; simpl; intros [H|H]; auto. destruct (IH H); auto.
Qed.
Lemma get_hdel {V} k (l : list (N * V)) : forall k', get k' (hdel k l) = if N.eqb k' k then None else get k' l.
Proof.
  induction l as [|[k0 v] l IH]; intros k'; simpl; [destruct (N.eqb k' k); reflexivity|].
  destruct (N.eqb_spec k k0) as [<-|Hn]; simpl; rewrite IH.
  - destruct (N.eqb k' k); reflexivity.
  - destruct (N.eqb_spec k' k0) as [->|]; [|reflexivity]. destruct (N.eqb_spec k0 k); congruence.
Qed.
Lemma In_hdel {V} k (l : list (N * V)) e : In e (hdel k l) -> In e l.
Proof. induction l as [|[k0 v0] l IH]; simpl; auto. destruct (N.eqb k k0); simpl; intros; auto. destruct H; auto. Qed.
Lemma get_keep {V} keep (es : list (N * V)) q : get q (keep_entries keep es) = if memN q keep then get q es else None.
Proof.
  unfold keep_entries. induction es as [|[k v] es IH]; simpl; [destruct (memN q keep); auto|].
  destruct (memN k keep) eqn:E; simpl; rewrite IH; destruct (N.eqb_spec q k) as [->|]; rewrite ?E; auto.
Qed.
Lemma get_In_snd {V} q (es : list (N * V)) v : get q es = Some v -> In (q, v) es.
Proof. exact (get_In q v es). Qed.

Lemma eqb2_spec o2 o k2 k : reflect (o2 = o /\ k2 = k) (N.eqb o2 o && N.eqb k2 k).
Proof. destruct (N.eqb_spec o2 o), (N.eqb_spec k2 k); constructor; tauto. Qed.

Lemma countN_app x l1 l2 : countN x (l1 ++ l2) = countN x l1 + countN x l2.
Proof. induction l1; simpl; auto. rewrite IHl1. lia. Qed.
Lemma countN_In x l : In x l -> 1 <= countN x l.
Proof. induction l as [|y l IH]; simpl; intros H; [destruct H|]. destruct H as [->|H]; [rewrite N.eqb_refl; lia | specialize (IH H); lia]. Qed.
Lemma countN_map_inj {A} (f : A -> N) l a b x : countN x (map f l) <= 1 -> In a l -> In b l -> f a = x -> f b = x -> a = b.
Proof.
  intros C Ha Hb <- E. apply in_split in Ha as (l1 & l2 & ->). rewrite map_app, countN_app in C. simpl in C. rewrite N.eqb_refl in C.
  apply in_app_or in Hb as [Hb|[Hb|Hb]]; [|exact Hb|]; apply (in_map f), countN_In in Hb; rewrite E in Hb; lia.
Qed.

(* g = mget c or cget c, L = the live objects of that level *)
Lemma count_one_entry (g : N -> list (N * N)) L x o q o2 q2 :
  countN x (flat_map (fun o => map snd (g o)) L) <= 1 -> In o L -> In o2 L ->
  get q (g o) = Some x -> get q2 (g o2) = Some x -> o2 = o /\ q2 = q.
Proof.
  (* the referrers are the values of one list of entries (o, (q, x)) *)
  replace (flat_map _ L) with (map (fun e => snd (snd e)) (flat_map (fun o => map (pair o) (g o)) L))
    by (induction L as [|y L IH]; simpl; [|rewrite map_app, map_map, IH]; reflexivity).
  intros C Ho Ho2 G G2. apply get_In in G, G2.
  assert (E : (o, (q, x)) = (o2, (q2, x))); [|injection E; auto].
  apply (countN_map_inj _ _ _ _ x C); [| |reflexivity|reflexivity]; apply in_flat_map.
  - exists o. split; [exact Ho | exact (in_map (pair o) _ _ G)].
  - exists o2. split; [exact Ho2 | exact (in_map (pair o2) _ _ G2)].
Qed.

Definition live (c : cow) (h : N) (fs : list N) (m : N) : Prop := get h (hnd c) = Some (fs, m).

Definition OwnM (c : cow) (h m : N) : Prop := forall h2 fs2, live c h2 fs2 m -> h2 = h.
Definition OwnC (c : cow) (h q cl : N) : Prop :=
  forall h2 fs2 m2 q2, live c h2 fs2 m2 -> get q2 (mget c m2) = Some cl -> h2 = h /\ q2 = q.
Definition OwnT (c : cow) (h q a ts : N) : Prop :=
  forall h2 fs2 m2 q2 cl2 a2, live c h2 fs2 m2 -> get q2 (mget c m2) = Some cl2 -> get a2 (cget c cl2) = Some ts -> h2 = h /\ q2 = q /\ a2 = a.

Lemma live_lmaps c h fs m : live c h fs m -> In m (nodupN (lmaps c)).
Proof. intros H. apply In_nodupN. exact (in_map (fun e => snd (snd e)) _ _ (get_In _ _ _ H)). Qed.
Lemma path_lcls c h fs m q cl : live c h fs m -> get q (mget c m) = Some cl -> In cl (nodupN (lcls c)).
Proof.
  intros L G. apply In_nodupN, in_flat_map. exists m. split; [exact (live_lmaps c h fs m L) | exact (in_map snd _ _ (get_In _ _ _ G))].
Qed.

Lemma map_excl c h fs m : map_unique c m = true -> live c h fs m -> OwnM c h m.
Proof.
  unfold map_unique, lmaps. intros U L h2 fs2 L2. apply Nat.eqb_eq in U. apply get_In in L, L2.
  assert (E : (h2, (fs2, m)) = (h, (fs, m))) by (apply (countN_map_inj (fun e => snd (snd e)) (hnd c) _ _ m); auto; lia).
  congruence.
Qed.
Lemma cl_excl c h fs m q cl : cl_unique c cl = true -> live c h fs m -> get q (mget c m) = Some cl ->
  forall h2 fs2 m2 q2, live c h2 fs2 m2 -> get q2 (mget c m2) = Some cl -> m2 = m /\ q2 = q.
Proof.
  intros U L G h2 fs2 m2 q2 L2 G2. apply Nat.eqb_eq, Nat.eq_le_incl in U.
  exact (count_one_entry (mget c) _ cl m q m2 q2 U (live_lmaps c h fs m L) (live_lmaps c h2 fs2 m2 L2) G G2).
Qed.
Lemma ts_excl c h fs m q cl a ts : ts_unique c ts = true -> live c h fs m -> get q (mget c m) = Some cl -> get a (cget c cl) = Some ts ->
  forall h2 fs2 m2 q2 cl2 a2, live c h2 fs2 m2 -> get q2 (mget c m2) = Some cl2 -> get a2 (cget c cl2) = Some ts -> cl2 = cl /\ a2 = a.
Proof.
  intros U L G Ga h2 fs2 m2 q2 cl2 a2 L2 G2 Ga2. apply Nat.eqb_eq, Nat.eq_le_incl in U.
  exact (count_one_entry (cget c) _ ts cl a cl2 a2 U (path_lcls c h fs m q cl L G) (path_lcls c h2 fs2 m2 q2 cl2 L2 G2) Ga Ga2).
Qed.

(* ids are handed out by the counter nxt: what is referenced is below it, so the id nxt c is fresh *)
Record Bound (c : cow) : Prop := {
  b_h : forall h fs m, In (h, (fs, m)) (hnd c) -> (m < nxt c)%N;
  b_m : forall m q cl, In (q, cl) (mget c m) -> (cl < nxt c)%N;
  b_c : forall cl a ts, In (a, ts) (cget c cl) -> (ts < nxt c)%N }.

Lemma live_bound c h fs m : Bound c -> live c h fs m -> (m < nxt c)%N.
Proof. intros B L. exact (b_h c B h fs m (get_In _ _ _ L)). Qed.

(* The writes the operations are made of; a getter of a field that a write leaves alone is convertible to the
   getter before the write. *)
Definition bump (c : cow) : cow := {| hnd := hnd c; mps := mps c; cls := cls c; tss := tss c; nxt := N.succ (nxt c) |}.
Definition set_map (c : cow) (m : N) (es : list (N * N)) : cow :=
  {| hnd := hnd c; mps := fset (mps c) m (Some es); cls := cls c; tss := tss c; nxt := nxt c |}.
Definition set_cl (c : cow) (cl : N) (es : list (N * N)) : cow :=
  {| hnd := hnd c; mps := mps c; cls := fset (cls c) cl (Some es); tss := tss c; nxt := nxt c |}.
Definition del_handle (c : cow) (h : N) : cow :=
  {| hnd := hdel h (hnd c); mps := mps c; cls := cls c; tss := tss c; nxt := nxt c |}.

Lemma alloc_cluster_eq c m q x :
  fst (alloc_cluster c m q x) = set_map (set_cl (bump c) (nxt c) x) m (put q (nxt c) (mget c m)).
Proof. reflexivity. Qed.
Lemma alloc_ts_eq c cl a x :
  fst (alloc_ts c cl a x) = set_cl (write_ts (bump c) (nxt c) x) cl (put a (nxt c) (cget c cl)).
Proof. reflexivity. Qed.

Lemma mget_set_map c m es m2 : mget (set_map c m es) m2 = if N.eqb m2 m then es else mget c m2.
Proof. unfold mget, set_map, fset. simpl. destruct (N.eqb m2 m); auto. Qed.
Lemma cget_set_cl c cl es cl2 : cget (set_cl c cl es) cl2 = if N.eqb cl2 cl then es else cget c cl2.
Proof. unfold cget, set_cl, fset. simpl. destruct (N.eqb cl2 cl); auto. Qed.
Lemma tget_write_ts c ts x ts2 : tget (write_ts c ts x) ts2 = if N.eqb ts2 ts then x else tget c ts2.
Proof. unfold tget, write_ts, fset. simpl. destruct (N.eqb ts2 ts); auto. Qed.

Lemma bump_bound c : Bound c -> Bound (bump c).
Proof.
  intros [H M C]. split; simpl; [intros h fs m I; apply H in I | intros m q cl I; apply M in I | intros cl a ts I; apply C in I]; lia.
Qed.
Lemma set_map_bound c m es : Bound c -> (forall q cl, In (q, cl) es -> (cl < nxt c)%N) -> Bound (set_map c m es).
Proof. intros [H M C] HE. split; [exact H| |exact C]. intros m2 q cl. rewrite mget_set_map. destruct (N.eqb m2 m); [apply HE | apply M]. Qed.
Lemma set_cl_bound c cl es : Bound c -> (forall a ts, In (a, ts) es -> (ts < nxt c)%N) -> Bound (set_cl c cl es).
Proof. intros [H M C] HE. split; [exact H|exact M|]. intros cl2 a ts. rewrite cget_set_cl. destruct (N.eqb cl2 cl); [apply HE | apply C]. Qed.
Lemma write_ts_bound c ts x : Bound c -> Bound (write_ts c ts x).
Proof. intros [H M C]. split; assumption. Qed.
Lemma set_handle_bound c h fs m : Bound c -> (m < nxt c)%N -> Bound (set_handle c h (fs, m)).
Proof.
  intros [H M C] Hm. split; [|exact M|exact C]. simpl. intros h0 fs0 m0 I.
  apply In_put in I as [[= _ _ <-]|I]; [exact Hm | exact (H _ _ _ I)].
Qed.
Lemma del_bound c h : Bound c -> Bound (del_handle c h).
Proof. intros [H M C]. split; [|exact M|exact C]. simpl. intros h0 fs m I. apply In_hdel in I. exact (H _ _ _ I). Qed.

Lemma put_fresh_below k n (l : list (N * N)) : (forall q v, In (q, v) l -> (v < n)%N) -> forall q v, In (q, v) (put k n l) -> (v < N.succ n)%N.
Proof. intros H q v I. apply In_put in I as [[= _ <-]|I]; [|apply H in I]; lia. Qed.

Lemma alloc_cluster_bound c m q x : Bound c -> (forall a ts, In (a, ts) x -> (ts < nxt c)%N) -> Bound (fst (alloc_cluster c m q x)).
Proof.
  intros B Hx. rewrite alloc_cluster_eq.
  apply set_map_bound; [apply set_cl_bound; [apply bump_bound, B|]|]; simpl.
  - intros a ts I. apply Hx in I. lia.
  - exact (put_fresh_below q (nxt c) (mget c m) (b_m c B m)).
Qed.
Lemma alloc_ts_bound c cl a x : Bound c -> Bound (fst (alloc_ts c cl a x)).
Proof.
  intros B. rewrite alloc_ts_eq.
  apply set_cl_bound; [apply write_ts_bound, bump_bound, B|]. exact (put_fresh_below a (nxt c) (cget c cl) (b_c c B cl)).
Qed.

Lemma get_alloc_cluster c m q x m2 q2 :
  get q2 (mget (fst (alloc_cluster c m q x)) m2) = if N.eqb m2 m && N.eqb q2 q then Some (nxt c) else get q2 (mget c m2).
Proof.
  rewrite alloc_cluster_eq, mget_set_map. destruct (N.eqb_spec m2 m) as [->|]; [apply get_put | reflexivity].
Qed.
Lemma cget_alloc_cluster c m q x cl : cget (fst (alloc_cluster c m q x)) cl = if N.eqb cl (nxt c) then x else cget c cl.
Proof. exact (cget_set_cl c (nxt c) x cl). Qed.
Lemma get_alloc_ts c cl a x cl2 a2 :
  get a2 (cget (fst (alloc_ts c cl a x)) cl2) = if N.eqb cl2 cl && N.eqb a2 a then Some (nxt c) else get a2 (cget c cl2).
Proof.
  rewrite alloc_ts_eq, cget_set_cl. destruct (N.eqb_spec cl2 cl) as [->|]; [apply get_put | reflexivity].
Qed.
Lemma tget_alloc_ts c cl a x ts : tget (fst (alloc_ts c cl a x)) ts = if N.eqb ts (nxt c) then x else tget c ts.
Proof. exact (tget_write_ts c (nxt c) x ts). Qed.

(* clookup c m q a = mread c (mget c m) q a, by computation *)
Definition mread (c : cow) (es : list (N * N)) (q a : N) : option tset :=
  match get q es with
  | None => None
  | Some cl => match get a (cget c cl) with None => None | Some ts => Some (tget c ts) end
  end.

Lemma clookup_set_map c m es m2 q a : clookup (set_map c m es) m2 q a = if N.eqb m2 m then mread c es q a else clookup c m2 q a.
Proof. unfold clookup. rewrite mget_set_map. destruct (N.eqb m2 m); reflexivity. Qed.

Lemma clookup_path c m q a cl ts : get q (mget c m) = Some cl -> get a (cget c cl) = Some ts -> clookup c m q a = Some (tget c ts).
Proof. unfold clookup. intros -> ->. reflexivity. Qed.

Lemma clookup_ext c c' m q a :
  get q (mget c' m) = get q (mget c m) ->
  (forall cl, get q (mget c m) = Some cl ->
     get a (cget c' cl) = get a (cget c cl) /\ forall ts, get a (cget c cl) = Some ts -> tget c' ts = tget c ts) ->
  clookup c' m q a = clookup c m q a.
Proof.
  intros Hm H. unfold clookup. rewrite Hm. destruct (get q (mget c m)) as [cl|]; auto.
  destruct (H cl eq_refl) as [Hc Ht]. rewrite Hc. destruct (get a (cget c cl)) as [ts|]; auto. rewrite (Ht ts); auto.
Qed.

Definition same_except (c c' : cow) (h q a : N) : Prop :=
  hnd c' = hnd c /\
  forall h2 fs2 m2 q2 a2, live c h2 fs2 m2 -> ~ (h2 = h /\ q2 = q /\ a2 = a) -> clookup c' m2 q2 a2 = clookup c m2 q2 a2.
Lemma same_except_trans c c1 c2 h q a : same_except c c1 h q a -> same_except c1 c2 h q a -> same_except c c2 h q a.
Proof.
  intros [H1 S1] [H2 S2]. split; [congruence|]. intros h2 fs2 m2 q2 a2 L D. rewrite <- (S1 h2 fs2 m2 q2 a2 L D).
  apply (S2 h2 fs2 m2); [|exact D]. unfold live. rewrite H1. exact L.
Qed.

Definition orempty (o : option tset) : tset := match o with Some x => x | None => [] end.

Lemma slookup_add r s q a : slookup (add_rule r s) q a =
  if N.eqb q (par r) && N.eqb a (sym r) then Some (ins (ch r) (orempty (slookup s q a))) else slookup s q a.
Proof.
  unfold slookup, add_rule. rewrite get_upd. destruct (N.eqb_spec q (par r)) as [->|]; simpl; auto.
  rewrite get_upd. unfold getd. destruct (N.eqb_spec a (sym r)) as [->|], (get (par r) s); reflexivity.
Qed.
Lemma slookup_keep keep (s : store) q a : slookup (keep_entries keep s) q a = if memN q keep then slookup s q a else None.
Proof. unfold slookup. rewrite get_keep. destruct (memN q keep); auto. Qed.

Definition reads (c : cow) (fs : list N) (m : N) (a : aut) : Prop :=
  fs = fin a /\ forall q x, clookup c m q x = slookup (st a) q x.

Definition agree (c : cow) (e : option (list N * N)) (v : option aut) : Prop :=
  match e, v with
  | Some (fs, m), Some a => fs = fin a /\ forall q x, clookup c m q x = slookup (st a) q x
  | None, None => True
  | _, _ => False
  end.
Definition Rel (c : cow) (p : pool aut) : Prop := Bound c /\ forall h, agree c (get h (hnd c)) (p h).

Lemma agree_mono c c' e v : agree c e v -> (forall fs m, e = Some (fs, m) -> forall q a, clookup c' m q a = clookup c m q a) -> agree c' e v.
Proof.
  unfold agree. destruct e as [[fs m]|], v as [a|]; auto. intros [F H] K. split; [exact F|]. intros q x. rewrite (K fs m eq_refl). apply H.
Qed.

Lemma agree_at c p h fs m a : Rel c p -> live c h fs m -> p h = Some a -> reads c fs m a.
Proof. intros [_ R] L Pa. specialize (R h). unfold live in L. rewrite L, Pa in R. exact R. Qed.

Lemma Rel_pset_id c p h a : p h = Some a -> Rel c (pset p h (Some a)) <-> Rel c p.
Proof.
  intros Pa. assert (E : forall x, pset p h (Some a) x = p x) by (intros x; unfold pset; destruct (N.eqb_spec x h); congruence).
  split; intros [B R]; (split; [exact B|]); intros x; [rewrite <- E | rewrite E]; apply R.
Qed.

(* a step that reads handle s finds it on both sides or on neither *)
Lemma Rel_live c p s {F : list N * N -> cow} {G : aut -> pool aut} : Rel c p ->
  (forall fs m a, live c s fs m -> (m < nxt c)%N -> p s = Some a -> reads c fs m a -> Rel (F (fs, m)) (G a)) ->
  Rel (match get s (hnd c) with Some v => F v | None => c end) (match p s with Some a => G a | None => p end).
Proof.
  intros R H. pose proof (proj2 R s) as A. unfold agree in A.
  destruct (get s (hnd c)) as [[fs m]|] eqn:E, (p s) as [a|]; try contradiction; auto.
  exact (H fs m a E (live_bound c s fs m (proj1 R) E) eq_refl A).
Qed.

Lemma Rel_same c p c' : Rel c p -> Bound c' -> hnd c' = hnd c ->
  (forall x fs m, live c x fs m -> forall q a, clookup c' m q a = clookup c m q a) -> Rel c' p.
Proof. intros [_ R] B' H F. split; auto. intros x. rewrite H. apply (agree_mono c); auto. intros fs m E. exact (F x fs m E). Qed.

Lemma Rel_write c p c' h fs m a : Rel c p -> Bound c' ->
  (forall x, get x (hnd c') = if N.eqb x h then Some (fs, m) else get x (hnd c)) ->
  (forall x fs m, x <> h -> live c x fs m -> forall q y, clookup c' m q y = clookup c m q y) ->
  reads c' fs m a -> Rel c' (pset p h (Some a)).
Proof.
  intros [_ R] B' Hh F Rd. split; auto. intros x. rewrite Hh. unfold pset. destruct (N.eqb_spec x h) as [->|Hn]; [exact Rd|].
  apply (agree_mono c); auto. intros fs2 m2 E. exact (F x fs2 m2 Hn E).
Qed.

Lemma Rel_set_handle c p h fs m a : Rel c p -> (m < nxt c)%N -> reads c fs m a ->
  Rel (set_handle c h (fs, m)) (pset p h (Some a)).
Proof.
  intros R Hm Rd. apply (Rel_write c p _ h fs m a R); auto.
  - apply set_handle_bound; [apply R | exact Hm].
  - apply get_put.
Qed.

Lemma Rel_del c p h : Rel c p -> Rel (del_handle c h) (pset p h None).
Proof.
  intros [B R]. split; [apply del_bound, B|]. intros x. simpl. rewrite get_hdel. unfold pset.
  destruct (N.eqb x h); [exact I|]. apply (agree_mono c); auto.
Qed.

Lemma Rel_own_map c p h m es fs a : Rel c p -> (m < nxt c)%N -> OwnM c h m ->
  (forall q cl, In (q, cl) es -> (cl < nxt c)%N) -> fs = fin a -> (forall q x, mread c es q x = slookup (st a) q x) ->
  Rel (set_handle (set_map c m es) h (fs, m)) (pset p h (Some a)).
Proof.
  intros R Hm X HE Fa La. pose proof R as [B _]. apply (Rel_write c p _ h fs m a R).
  - apply set_handle_bound; [apply set_map_bound|]; assumption.
  - apply get_put.
  - intros x fs2 m2 Hn Lx q y. change (clookup (set_map c m es) m2 q y = clookup c m2 q y). rewrite clookup_set_map.
    destruct (N.eqb_spec m2 m) as [->|]; [|reflexivity]. destruct Hn. exact (X x fs2 Lx).
  - split; [exact Fa|]. intros q y. rewrite <- La. change (clookup (set_map c m es) m q y = mread c es q y).
    rewrite clookup_set_map, N.eqb_refl. reflexivity.
Qed.

(* a fresh map object is an owned one: no handle refers to the id nxt c *)
Lemma Rel_fresh_handle c p h es fs a : Rel c p -> (forall q cl, In (q, cl) es -> (cl < nxt c)%N) -> fs = fin a ->
  (forall q x, mread c es q x = slookup (st a) q x) ->
  Rel (let (c1, m') := new_map c es in set_handle c1 h (fs, m')) (pset p h (Some a)).
Proof.
  intros R HE Fa La. pose proof R as [B _]. apply (Rel_own_map (bump c) p h (nxt c) es fs a); auto.
  - apply (Rel_same c); auto. apply bump_bound, B.
  - simpl. lia.
  - intros h2 fs2 L2. apply (live_bound c h2 fs2 _ B) in L2. lia.
  - intros q cl I. apply HE in I. simpl. lia.
Qed.

Lemma uniq_map_rel c p h fs m a : Rel c p -> live c h fs m -> p h = Some a ->
  let (c1, m1) := uniq_map c h fs m in Rel c1 p /\ live c1 h fs m1 /\ OwnM c1 h m1.
Proof.
  intros R L Pa. destruct (agree_at c p h fs m a R L Pa) as [Fa La]. pose proof R as [B _].
  unfold uniq_map. destruct (map_unique c m) eqn:U; [exact (conj R (conj L (map_excl c h fs m U L)))|].
  split; [|split].
  - apply (Rel_pset_id _ p h a Pa). apply (Rel_fresh_handle c p h (mget c m) fs a R); auto. exact (b_m c B m).
  - unfold live. simpl. rewrite get_put, N.eqb_refl. reflexivity.
  - intros h2 fs2 L2. unfold live in L2. simpl in L2. rewrite get_put in L2. destruct (N.eqb_spec h2 h) as [|_]; auto.
    apply (live_bound c h2 fs2 _ B) in L2. lia.
Qed.

Lemma alloc_cluster_rel c p h fs m q : Rel c p -> live c h fs m -> OwnM c h m ->
  let c2 := fst (alloc_cluster c m q (match get q (mget c m) with Some cl => cget c cl | None => [] end)) in
  Rel c2 p /\ live c2 h fs m /\ get q (mget c2 m) = Some (nxt c) /\ OwnC c2 h q (nxt c).
Proof.
  intros R L X. pose proof R as [B _]. set (x := match get q (mget c m) with Some cl => cget c cl | None => [] end). intros c2.
  split; [|split; [exact L|split]].
  - apply (Rel_same c); auto.
    + apply alloc_cluster_bound; [exact B|]. unfold x. intros a ts I. destruct (get q (mget c m)); [exact (b_c c B _ a ts I) | destruct I].
    + intros _ _ m2 _ q2 a2. unfold clookup, c2. rewrite get_alloc_cluster. destruct (eqb2_spec m2 m q2 q) as [[-> ->]|_].
      * rewrite cget_alloc_cluster, N.eqb_refl. unfold x. destruct (get q (mget c m)); reflexivity.
      * destruct (get q2 (mget c m2)) as [cl0|] eqn:G; auto. apply get_In, (b_m c B) in G. rewrite cget_alloc_cluster.
        destruct (N.eqb_spec cl0 (nxt c)); [lia | reflexivity].
  - unfold c2. rewrite get_alloc_cluster, !N.eqb_refl. reflexivity.
  - intros h2 fs2 m2 q2 L2 G2. unfold c2 in G2. rewrite get_alloc_cluster in G2. destruct (eqb2_spec m2 m q2 q) as [[-> ->]|_].
    + split; auto. exact (X h2 fs2 L2).
    + apply get_In, (b_m c B) in G2. lia.
Qed.

Lemma uniq_cluster_rel c p h fs m q : Rel c p -> live c h fs m -> OwnM c h m ->
  let (c2, cl) := uniq_cluster c m q in Rel c2 p /\ live c2 h fs m /\ get q (mget c2 m) = Some cl /\ OwnC c2 h q cl.
Proof.
  intros R L X. pose proof (alloc_cluster_rel c p h fs m q R L X) as A. unfold uniq_cluster.
  destruct (get q (mget c m)) as [cl0|] eqn:G; [destruct (cl_unique c cl0) eqn:U|]; [|exact A|exact A].
  split; [exact R|]. split; [exact L|]. split; [exact G|]. intros h2 fs2 m2 q2 L2 G2.
  destruct (cl_excl c h fs m q cl0 U L G h2 fs2 m2 q2 L2 G2) as [-> ->]. split; auto. exact (X h2 fs2 L2).
Qed.

Lemma alloc_ts_spec c h m q cl a x : Bound c -> get q (mget c m) = Some cl -> OwnC c h q cl ->
  let c3 := fst (alloc_ts c cl a x) in
  Bound c3 /\ same_except c c3 h q a /\ get q (mget c3 m) = Some cl /\
  get a (cget c3 cl) = Some (nxt c) /\ tget c3 (nxt c) = x /\ OwnT c3 h q a (nxt c).
Proof.
  intros B G XC c3.
  split; [apply alloc_ts_bound, B|split; [split; [reflexivity|]|split; [exact G|split; [|split]]]].
  - intros h2 fs2 m2 q2 a2 L2 D. apply clookup_ext; [reflexivity|]. intros cl2 G2. unfold c3. rewrite get_alloc_ts.
    destruct (eqb2_spec cl2 cl a2 a) as [[-> ->]|_].
    + destruct D. destruct (XC h2 fs2 m2 q2 L2 G2). auto.
    + split; auto. intros ts0 Ga. apply get_In, (b_c c B) in Ga. rewrite tget_alloc_ts. destruct (N.eqb_spec ts0 (nxt c)); [lia | reflexivity].
  - unfold c3. rewrite get_alloc_ts, !N.eqb_refl. reflexivity.
  - unfold c3. rewrite tget_alloc_ts, N.eqb_refl. reflexivity.
  - intros h2 fs2 m2 q2 cl2 a2 L2 G2 Ga2. unfold c3 in Ga2. rewrite get_alloc_ts in Ga2. destruct (eqb2_spec cl2 cl a2 a) as [[-> ->]|_].
    + destruct (XC h2 fs2 m2 q2 L2 G2). auto.
    + apply get_In, (b_c c B) in Ga2. lia.
Qed.

Lemma uniq_ts_spec c h fs m q cl a :
  Bound c -> live c h fs m -> get q (mget c m) = Some cl -> OwnC c h q cl ->
  let (c3, ts) := uniq_ts c cl a in
  Bound c3 /\ same_except c c3 h q a /\ get q (mget c3 m) = Some cl /\
  get a (cget c3 cl) = Some ts /\ tget c3 ts = orempty (clookup c m q a) /\ OwnT c3 h q a ts.
Proof.
  intros B L G XC. unfold clookup. rewrite G.
  pose proof (alloc_ts_spec c h m q cl a (match get a (cget c cl) with Some ts0 => tget c ts0 | None => [] end) B G XC) as A.
  unfold uniq_ts.
  destruct (get a (cget c cl)) as [ts0|] eqn:Ga; [destruct (ts_unique c ts0) eqn:U|]; [|exact A|exact A].
  split; [exact B|]. split; [split; [reflexivity|]; intros h2 fs2 m2 q2 a2 _ _; reflexivity|]. split; [exact G|].
  split; [exact Ga|]. split; [reflexivity|]. intros h2 fs2 m2 q2 cl2 a2 L2 G2 Ga2.
  destruct (ts_excl c h fs m q cl a ts0 U L G Ga h2 fs2 m2 q2 cl2 a2 L2 G2 Ga2) as [-> ->].
  destruct (XC h2 fs2 m2 q2 L2 G2). auto.
Qed.

Lemma write_ts_spec c h m q cl a ts x : get q (mget c m) = Some cl -> get a (cget c cl) = Some ts -> OwnT c h q a ts ->
  same_except c (write_ts c ts x) h q a /\ clookup (write_ts c ts x) m q a = Some x.
Proof.
  intros G Ga XT. split; [split; [reflexivity|]|].
  - intros h2 fs2 m2 q2 a2 L2 D. apply clookup_ext; [reflexivity|]. intros cl2 G2. split; [reflexivity|]. intros ts2 Ga2.
    rewrite tget_write_ts. destruct (N.eqb_spec ts2 ts) as [->|]; auto.
    destruct D. exact (XT h2 fs2 m2 q2 cl2 a2 L2 G2 Ga2).
  - rewrite (clookup_path (write_ts c ts x) m q a cl ts G Ga), tget_write_ts, N.eqb_refl. reflexivity.
Qed.

Lemma cow_add_rel c p h r : Rel c p -> Rel (cow_add c h r) (vstep_run p (VMut h (fun a => step a (Add r)))).
Proof.
  intros R. unfold cow_add. cbn [vstep_run]. apply (Rel_live c p h R). intros fs m a L _ Pa _.
  pose proof (uniq_map_rel c p h fs m a R L Pa) as S1. destruct (uniq_map c h fs m) as [c1 m1]. destruct S1 as [R1 [L1 X1]].
  pose proof (uniq_cluster_rel c1 p h fs m1 (par r) R1 L1 X1) as S2. destruct (uniq_cluster c1 m1 (par r)) as [c2 cl].
  destruct S2 as [R2 [L2 [G2 X2]]]. destruct (agree_at c2 p h fs m1 a R2 L2 Pa) as [Fa La].
  pose proof (uniq_ts_spec c2 h fs m1 (par r) cl (sym r) (proj1 R2) L2 G2 X2) as S. destruct (uniq_ts c2 cl (sym r)) as [c3 ts].
  destruct S as [B3 [S3 [G3 [Ga3 [T3 X3]]]]].
  destruct (write_ts_spec c3 h m1 (par r) cl (sym r) ts (ins (ch r) (tget c3 ts)) G3 Ga3 X3) as [S4 W4].
  destruct (same_except_trans _ _ _ _ _ _ S3 S4) as [H S].
  apply (Rel_write c2 p _ h fs m1 (step a (Add r)) R2 (write_ts_bound c3 ts _ B3)).
  - intros x. rewrite H. destruct (N.eqb_spec x h) as [->|]; [exact L2 | reflexivity].
  - intros x fs2 m2 Hn Lx q y. apply (S x fs2 m2 q y Lx). intros [E _]. exact (Hn E).
  - split; [exact Fa|]. intros q y. simpl. rewrite slookup_add, <- La. destruct (eqb2_spec q (par r) y (sym r)) as [[-> ->]|D].
    + rewrite W4, T3. reflexivity.
    + apply (S h fs m1 q y L2). intros [_ D']. exact (D D').
Qed.

Theorem step_refines c p stp : Rel c p -> Rel (cstep_run c stp) (vstep_run p (abs_step stp)).
Proof.
  intros R. pose proof R as [B _]. destruct stp; cbn [cstep_run abs_step vstep_run].
  - apply Rel_fresh_handle; auto. intros q cl [].
  - apply (Rel_live c p s R). intros fs m a _ Hm _ Rd. apply Rel_set_handle; auto.
  - (* CMove: s is destroyed, then h is set *)
    apply (Rel_live c p s R). intros fs m a _ Hm _ Rd.
    exact (Rel_set_handle (del_handle c s) _ h fs m a (Rel_del c p s R) Hm Rd).
  - exact (cow_add_rel c p h r R).
  - apply (Rel_live c p h R). intros fs m a _ Hm _ [-> La]. apply Rel_set_handle; auto. exact (conj eq_refl La).
  - apply (Rel_live c p h R). intros fs m a _ Hm _ [_ La]. apply Rel_set_handle; auto. exact (conj eq_refl La).
  - apply (Rel_live c p h R). intros fs m a L Hm _ _.
    destruct (map_unique c m) eqn:U; [apply Rel_own_map; auto; [exact (map_excl c h fs m U L)|] | apply Rel_fresh_handle; auto]; intros q cl [].
  - apply (Rel_live c p h R). intros fs m a L _ Pa _. apply (Rel_pset_id _ p h a Pa).
    pose proof (uniq_map_rel c p h fs m a R L Pa) as S. destruct (uniq_map c h fs m) as [c1 m1]. exact (proj1 S).
  - exact (Rel_del c p h R).
  - apply (Rel_live c p s R). intros fs0 m a _ Hm _ [_ La]. apply Rel_set_handle; auto. exact (conj eq_refl La).
  - apply (Rel_live c p s R). intros fs0 m a _ _ _ [_ La]. apply Rel_fresh_handle; auto.
    + intros q cl I. apply filter_In in I as [I _]. exact (b_m c B m q cl I).
    + intros q y. simpl. rewrite slookup_keep, <- La. unfold mread, clookup. rewrite get_keep. destruct (memN q keep); reflexivity.
Qed.

Lemma Rel_empty : Rel cempty pempty.
Proof. split; [split; simpl; intros; contradiction | intros h; exact I]. Qed.

Lemma run_refines l : forall c p, Rel c p -> Rel (fold_left cstep_run l c) (vrun p (map abs_step l)).
Proof. induction l as [|s l IH]; simpl; intros c p R; auto. apply IH. apply step_refines; auto. Qed.

(* for ALL histories: what is read through any handle of the copy-on-write heap is what the value model says *)
Theorem cow_refines_value l : forall h,
  match get h (hnd (crun l)), vrun_abs l h with
  | Some (fs, m), Some a => fs = fin a /\ forall q x, clookup (crun l) m q x = slookup (st a) q x
  | None, None => True
  | _, _ => False
  end.
Proof. exact (proj2 (run_refines l cempty pempty Rel_empty)). Qed.

Lemma crun_app l1 l2 : crun (l1 ++ l2) = fold_left cstep_run l2 (crun l1).
Proof. unfold crun. apply fold_left_app. Qed.
Lemma vrun_abs_app l1 l2 : vrun_abs (l1 ++ l2) = vrun (vrun_abs l1) (map abs_step l2).
Proof. unfold vrun_abs, vrun. rewrite map_app. apply fold_left_app. Qed.

Definition reads_as (c : cow) (h : N) (a : aut) : Prop :=
  exists fs m, get h (hnd c) = Some (fs, m) /\ fs = fin a /\ forall q x, clookup c m q x = slookup (st a) q x.

Lemma reads_as_value l h a : vrun_abs l h = Some a -> reads_as (crun l) h a.
Proof.
  intros H. pose proof (cow_refines_value l h) as R. rewrite H in R.
  destruct (get h (hnd (crun l))) as [[fs m]|] eqn:G; [|contradiction]. exists fs, m. split; [exact G|exact R].
Qed.
Lemma value_of_reads l h : (exists e, get h (hnd (crun l)) = Some e) -> exists a, vrun_abs l h = Some a.
Proof.
  intros [[fs m] H]. pose proof (cow_refines_value l h) as R. rewrite H in R.
  destruct (vrun_abs l h) as [a|]; [exists a; auto | contradiction].
Qed.

Lemma reads_after l1 stp l2 h a : vrun (vstep_run (vrun_abs l1) (abs_step stp)) (map abs_step l2) h = Some a ->
  reads_as (crun (l1 ++ stp :: l2)) h a.
Proof. intros H. apply reads_as_value. rewrite vrun_abs_app. exact H. Qed.
Lemma written_map l h : (forall st, In st l -> ~ In h (written (abs_step st))) -> forall st, In st (map abs_step l) -> ~ In h (written st).
Proof. intros H st Hin. apply in_map_iff in Hin as [st0 [<- Hin]]. auto. Qed.

(* after a copy (construction or assignment), ANY later history that does not assign to / destroy the copy itself — whatever it
   does to the source: adding rules at any sharing level, clearing, changing finals, destroying — leaves what is read through the copy unchanged *)
Theorem cow_copy_isolated l1 l2 h s a : h <> s -> vrun_abs l1 s = Some a ->
  (forall st, In st l2 -> ~ In h (written (abs_step st))) ->
  reads_as (crun (l1 ++ CCopy h s :: l2)) h a.
Proof. intros Hn Hs Hl. apply reads_after. exact (copy_isolated aut _ h s a _ Hs Hn (written_map l2 h Hl)). Qed.
Theorem cow_copy_isolated_src l1 l2 h s a : h <> s -> vrun_abs l1 s = Some a ->
  (forall st, In st l2 -> ~ In s (written (abs_step st))) ->
  reads_as (crun (l1 ++ CCopy h s :: l2)) s a.
Proof. intros Hn Hs Hl. apply reads_after. exact (copy_isolated_src aut _ h s a _ Hs Hn (written_map l2 s Hl)). Qed.
(* a trimming result that shares the operand's clusters (or its whole map) keeps its value whatever happens to the operand *)
Theorem cow_result_independent_clusters l1 l2 h s keep fs a : vrun_abs l1 s = Some a ->
  (forall st, In st l2 -> ~ In h (written (abs_step st))) ->
  reads_as (crun (l1 ++ CShareClusters h s keep fs :: l2)) h {| st := keep_entries keep (st a); fin := fs |}.
Proof. intros Hs Hl. apply reads_after. exact (result_independent_of_operand_fate1 aut _ h _ s a _ Hs (written_map l2 h Hl)). Qed.
Theorem cow_result_independent_map l1 l2 h s fs a : vrun_abs l1 s = Some a ->
  (forall st, In st l2 -> ~ In h (written (abs_step st))) ->
  reads_as (crun (l1 ++ CShareMap h s fs :: l2)) h {| st := st a; fin := fs |}.
Proof. intros Hs Hl. apply reads_after. exact (result_independent_of_operand_fate1 aut _ h _ s a _ Hs (written_map l2 h Hl)). Qed.

Lemma keys_filter_NoDup {V} (f : N * V -> bool) l : NoDup (keys l) -> NoDup (keys (filter f l)).
Proof.
  induction l as [|[k v] l IH]; simpl; intros ND; auto. inversion ND as [|? ? Hk ND']; subst.
  destruct (f (k, v)); simpl; auto. constructor; auto. intros H. exact (Hk (incl_map fst (incl_filter f l) k H)).
Qed.
Lemma keep_wf keep s : wf_st s -> wf_st (keep_entries keep s).
Proof. intros [ND HF]. split; [apply keys_filter_NoDup, ND | exact (incl_Forall (incl_map snd (incl_filter _ s)) HF)]. Qed.
Lemma step_wf_st a o : wf_st (st a) -> wf_st (st (step a o)).
Proof. intros W. destruct o; simpl; auto. - apply add_rule_wf; auto. - split; constructor. Qed.

Definition pool_wf (p : pool aut) : Prop := forall h a, p h = Some a -> wf_st (st a).
Lemma pool_wf_set p k a : pool_wf p -> wf_st (st a) -> pool_wf (pset p k (Some a)).
Proof. intros W Wa h a0. unfold pset. destruct (N.eqb h k); [intros [= <-]; exact Wa | apply W]. Qed.
Lemma pool_wf_unset p k : pool_wf p -> pool_wf (pset p k None).
Proof. intros W h a0. unfold pset. destruct (N.eqb h k); [discriminate | apply W]. Qed.
Lemma pool_wf_read p s (G : aut -> pool aut) : pool_wf p -> (forall a, wf_st (st a) -> pool_wf (G a)) ->
  pool_wf (match p s with Some a => G a | None => p end).
Proof. intros W H. destruct (p s) as [a|] eqn:E; auto. exact (H a (W s a E)). Qed.

Lemma abs_step_wf p stp : pool_wf p -> pool_wf (vstep_run p (abs_step stp)).
Proof.
  intros W. destruct stp; cbn [abs_step vstep_run]; try (apply pool_wf_read; [exact W | intros a Wa]);
    auto using pool_wf_set, pool_wf_unset, step_wf_st.
  - apply pool_wf_set; auto. split; constructor.
  - apply pool_wf_set; auto. apply keep_wf, Wa.
Qed.
Lemma vrun_abs_wf l : pool_wf (vrun_abs l).
Proof.
  unfold vrun_abs. assert (G : forall p, pool_wf p -> pool_wf (vrun p (map abs_step l))).
  { induction l as [|s l IH]; simpl; intros p W; auto. apply IH. apply abs_step_wf; auto. }
  apply G. intros h a E. discriminate.
Qed.

Theorem cow_reads_rules l h a : vrun_abs l h = Some a -> forall r, In r (iter (st a)) <-> cow_contains (crun l) h r = true.
Proof.
  intros H r. rewrite (iter_contains _ _ (vrun_abs_wf l h a H)).
  destruct (reads_as_value l h a H) as [fs [m [G [_ K]]]]. unfold cow_contains. rewrite G, K.
  unfold contains, slookup. destruct (get (par r) (st a)) as [cl|]; [|tauto]. destruct (get (sym r) cl); tauto.
Qed.
