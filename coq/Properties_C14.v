(* C14 — Renaming states or symbols yields exactly the image automaton.
   [Lang.image h A] / [simage g A] are the flat images; [reindex_aut] is ReindexStates on the nested store of
   C12 written as the code iterates; [gate_*] are evaluated on libvata's result with the map read back from
   the translator.  Nothing but statements closed by [exact]; proofs are in ReindexProofs.v and Lang.v. *)
From Coq Require Import List NArith Bool.
Import ListNotations.
From V Require Import Sem Prod.
From V Require Lang.
From V Require Import StoreDefs StoreProofs ReindexDefs ReindexProofs.

(* a rule / final state is in the image iff it is the image of one of the input *)
Theorem C14_image_exact_rules : forall h A r', In r' (rules (Lang.image h A)) <-> exists r, In r (rules A) /\ r' = Lang.map_rule h r.
Proof. exact image_exact_rules. Qed.
Theorem C14_image_exact_finals : forall h A q', In q' (finals (Lang.image h A)) <-> exists q, In q (finals A) /\ q' = h q.
Proof. exact image_exact_finals. Qed.
Theorem C14_simage_exact_rules : forall g A r', In r' (rules (simage g A)) <-> exists r, In r (rules A) /\ r' = smap_rule g r.
Proof. exact simage_exact_rules. Qed.
(* injective on the states => same language, same number of distinct states and rules *)
Theorem C14_image_inj_iso : forall h A, Lang.inj_on h (states A) ->
  (forall t, accepts (Lang.image h A) t <-> accepts A t) /\
  length (nodup N.eq_dec (states (Lang.image h A))) = length (nodup N.eq_dec (states A)) /\
  length (nodup rule_eq_dec (rules (Lang.image h A))) = length (nodup rule_eq_dec (rules A)).
Proof. exact image_inj_iso. Qed.
(* any map => the language grows *)
Theorem C14_image_lang_sup : forall h A t, accepts A t -> accepts (Lang.image h A) t.
Proof. exact image_lang_sup. Qed.
(* symbols: the language is the relabelled language (any map); injective => same states, same number of rules *)
Theorem C14_simage_lang : forall g A t', accepts (simage g A) t' <-> exists t, t' = relabel g t /\ accepts A t.
Proof. exact simage_lang. Qed.
Theorem C14_simage_inj_iso : forall g A, Lang.inj_on g (map sym (rules A)) ->
  states (simage g A) = states A /\
  length (nodup rule_eq_dec (rules (simage g A))) = length (nodup rule_eq_dec (rules A)).
Proof. exact simage_inj_iso. Qed.

(* the nested re-indexing, as the code iterates (merging maps hit one destination cluster repeatedly),
   yields exactly destination + image, each rule once, and keeps the store well-formed *)
Theorem C14_reindex_nested_image : forall h S D, wf_st S -> wf_st D ->
  NoDup (iter (reindex_nested h S D)) /\
  forall r, In r (iter (reindex_nested h S D)) <-> In r (iter D) \/ exists r0, In r0 (iter S) /\ r = Lang.map_rule h r0.
Proof. exact reindex_nested_image. Qed.
Theorem C14_reindex_aut_wf : forall h addf a d, wf a -> wf d -> wf (reindex_aut h addf a d).
Proof. exact reindex_aut_wf. Qed.
Theorem C14_reindex_model_passes : forall h addf a d, wf a -> wf d ->
  gate_reindex h addf (flat a) (flat d) (flat (reindex_aut h addf a d)) = true.
Proof. exact reindex_model_passes. Qed.
Theorem C14_model_image_passes : forall h A, gate_image h A (flat (reindex_aut h true (of_ta A) init)) = true.
Proof. exact model_image_passes. Qed.
Theorem C14_translate_model_passes : forall g a, wf a -> gate_simage g (flat a) (flat (translate_aut g a)) = true.
Proof. exact translate_model_passes. Qed.

(* the gates decide "exactly the image" on an implementation's result, and carry the consequences *)
Theorem C14_gate_image : forall h A R, gate_image h A R = true <->
  NoDup (rules R) /\ NoDup (finals R) /\
  (forall r', In r' (rules R) <-> exists r, In r (rules A) /\ r' = Lang.map_rule h r) /\
  (forall q', In q' (finals R) <-> exists q, In q (finals A) /\ q' = h q).
Proof. exact gate_image_spec. Qed.
Theorem C14_gate_image_inj : forall h A R, gate_image h A R = true -> Lang.inj_on h (states A) ->
  (forall t, accepts R t <-> accepts A t) /\
  length (nodup N.eq_dec (states R)) = length (nodup N.eq_dec (states A)) /\
  length (rules R) = length (nodup rule_eq_dec (rules A)).
Proof. exact gate_image_inj. Qed.
Theorem C14_gate_image_sup : forall h A R, gate_image h A R = true -> forall t, accepts A t -> accepts R t.
Proof. exact gate_image_sup. Qed.
Theorem C14_gate_simage : forall g A R, gate_simage g A R = true <->
  NoDup (rules R) /\ NoDup (finals R) /\
  (forall r', In r' (rules R) <-> exists r, In r (rules A) /\ r' = smap_rule g r) /\
  (forall q, In q (finals R) <-> In q (finals A)).
Proof. exact gate_simage_spec. Qed.
Theorem C14_gate_simage_lang : forall g A R, gate_simage g A R = true ->
  forall t', accepts R t' <-> exists t, t' = relabel g t /\ accepts A t.
Proof. exact gate_simage_lang. Qed.
Theorem C14_gate_simage_inj : forall g A R, gate_simage g A R = true -> Lang.inj_on g (map sym (rules A)) ->
  (forall x, In x (states R) <-> In x (states A)) /\ length (rules R) = length (nodup rule_eq_dec (rules A)).
Proof. exact gate_simage_inj. Qed.
Theorem C14_inj_onb : forall h l, inj_onb h l = true <-> Lang.inj_on h l.
Proof. exact inj_onb_spec. Qed.
(* the read-back translator: functional, total on the used states, extends the pre-filled part;
   then the offset used for unlisted keys does not matter *)
Theorem C14_gate_translator : forall pre m A, gate_translator pre m A = true ->
  NoDup (keys m) /\ (forall x, In x (states A) -> exists y, get x m = Some y) /\ (forall k v, In (k, v) pre -> get k m = Some v).
Proof. exact gate_translator_sound. Qed.
Theorem C14_app_map_total : forall m A off off', total_on m (states A) = true ->
  Lang.image (app_map m off) A = Lang.image (app_map m off') A.
Proof. exact app_map_total. Qed.
Example C14_gate_example :
  let A := {| rules := [ {| sym := 0; ch := []; par := 1 |}; {| sym := 2; ch := [1; 2]; par := 2 |} ]; finals := [2] |}%N in
  let h := app_map [(1, 7); (2, 7)]%N 0 in
  gate_image h A (flat (reindex_aut h true (of_ta A) init)) = true /\ inj_onb h (states A) = false /\
  gate_translator [(1, 7)]%N [(1, 7); (2, 7)]%N A = true.
Proof. exact gate_image_example. Qed.

Print Assumptions C14_image_exact_rules.
Print Assumptions C14_image_exact_finals.
Print Assumptions C14_simage_exact_rules.
Print Assumptions C14_image_inj_iso.
Print Assumptions C14_image_lang_sup.
Print Assumptions C14_simage_lang.
Print Assumptions C14_simage_inj_iso.
Print Assumptions C14_reindex_nested_image.
Print Assumptions C14_reindex_aut_wf.
Print Assumptions C14_reindex_model_passes.
Print Assumptions C14_model_image_passes.
Print Assumptions C14_translate_model_passes.
Print Assumptions C14_gate_image.
Print Assumptions C14_gate_image_inj.
Print Assumptions C14_gate_image_sup.
Print Assumptions C14_gate_simage.
Print Assumptions C14_gate_simage_lang.
Print Assumptions C14_gate_simage_inj.
Print Assumptions C14_inj_onb.
Print Assumptions C14_gate_translator.
Print Assumptions C14_app_map_total.
Print Assumptions C14_gate_example.
