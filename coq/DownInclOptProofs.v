(* Proofs about the recursive downward inclusion algorithm with the implication cache (DownInclOptDefs.v): with promotion of the
   consequents only when the antecedent is empty, an answer is the truth, whatever the fuel; with careless promotion the algorithm
   answers "included" on a pair that is not. *)
From Coq Require Import List NArith Bool.
Import ListNotations.
From V Require Import Sem Incl TrimProofs InclDefs DownIncl DownInclCacheDefs DownInclOptDefs DownInclState.

Lemma same_goal_spec g h : same_goal g h = true <-> fst g = fst h /\ incl (snd g) (snd h) /\ incl (snd h) (snd g).
Proof. unfold same_goal. rewrite !andb_true_iff, N.eqb_eq, !subN_spec. tauto. Qed.
Lemma same_goal_refl g : same_goal g g = true.
Proof. apply same_goal_spec. auto using incl_refl. Qed.

(* [orec]: the recursive call as the innermost fold sees it, the answer merged into the state of the level;
   [finish]: what [downo] makes of the outcome of the expansion *)
Definition merge (st : ost) (res : option ores) : option (bool * ost) :=
  match res with
  | Some r' => if ok r' then Some (true, (deps r' ++ fst (fst st), cons r' ++ snd (fst st), gc r'))
               else Some (false, (fst (fst st), snd (fst st), gc r'))
  | None => None
  end.
Definition orec (cl : bool) (A B : ta) (f : nat) (W' : list goal) (q' : N) (S' : list N) (st : ost) : option (bool * ost) :=
  merge st (downo cl A B f q' S' W' (snd st)).

Definition finish (cl : bool) (q : N) (S : list N) (res : option (bool * ost)) : option ores :=
  match res with
  | Some (true, (D, Cn, G1)) =>
      let D' := filter (fun h => negb (same_goal (q, S) h)) D in
      if is_nil D' || cl then Some {| ok := true; deps := D'; cons := []; gc := ((q, S) :: Cn) ++ G1 |}
      else Some {| ok := true; deps := D'; cons := (q, S) :: Cn; gc := G1 |}
  | Some (false, (_, _, G1)) => Some {| ok := false; deps := []; cons := []; gc := G1 |}
  | None => None
  end.

(* one level of [downo]; the global cache is searched like a workset: [existsb (hit q S) G] is [in_workset G q S] *)
Lemma downo_eq cl A B f q S W G : downo cl A B (Datatypes.S f) q S W G =
  match find (hit q S) W with
  | Some h => Some {| ok := true; deps := [h]; cons := []; gc := G |}
  | None =>
    if in_workset G q S then Some {| ok := true; deps := []; cons := []; gc := G |}
    else finish cl q S (expand_s (orec cl A B f ((q, S) :: W)) A B q S ([], [], G))
  end.
Proof. reflexivity. Qed.

Section Opt.
  Variables A B : ta.

  (* the state of a level: the global cache holds unconditionally; the antecedent collected so far lies in the open goals;
     the consequents collected so far hold under it. Along a level the antecedent only grows. *)
  Definition SInv (W' : list goal) (st : ost) :=
    holds (Under A B []) (snd st) /\ incl (fst (fst st)) W' /\ holds (Under A B (fst (fst st))) (snd (fst st)).

  Definition Sound (q : N) (S : list N) (W : list goal) (r : ores) :=
    holds (Under A B []) (gc r) /\
    if ok r then incl (deps r) W /\ holds (Under A B (deps r)) ((q, S) :: cons r) else Refuted A B q S.

  Definition level_order (W' : list goal) : StOrder ost :=
    {| st_inv := SInv W'; st_le := fun st st' => incl (fst (fst st)) (fst (fst st'));
       st_refl := fun st => incl_refl _; st_trans := fun st1 st2 st3 => @incl_tran _ _ _ _ |}.

  Lemma merge_spec W' q S st res : (holds (Under A B []) (snd st) -> if_some (Sound q S W') res) ->
    triple (level_order W') st (merge st res) (fun st' => Under A B (fst (fst st')) q S) (Refuted A B q S).
  Proof.
    destruct st as [[D Cn] G]. unfold triple, SInv. simpl. intros Hres [HG [HD HCn]]. specialize (Hres HG).
    destruct res as [r|]; [|exact I]. destruct Hres as [HG' Hok]. simpl.
    destruct (ok r); simpl; [|repeat split; auto; apply incl_refl].
    destruct Hok as [Hi Hc]. pose proof (Forall_inv Hc) as Hq. pose proof (Forall_inv_tail Hc) as Hcs. repeat split; auto.
    - apply incl_app; assumption.
    - apply Forall_app. split; [exact (holds_weaken A B _ _ _ (incl_appl D (incl_refl _)) Hcs) | exact (holds_weaken A B _ _ _ (incl_appr _ (incl_refl D)) HCn)].
    - apply incl_appr, incl_refl.
    - exact (Under_weaken A B _ _ q S (incl_appl D (incl_refl _)) Hq).
  Qed.

  (* the expansion of (q, S) succeeded with antecedent D: the goal leaves the antecedent and joins the consequents,
     which are promoted when nothing is left of the antecedent *)
  Lemma finish_spec q S W (b : bool) (D Cn G1 : list goal) : SInv ((q, S) :: W) (D, Cn, G1) ->
    (if b then forall r, In r (rules A) -> par r = q -> rule_ok (Under A B D) B S r else Refuted A B q S) ->
    if_some (Sound q S W) (finish false q S (Some (b, (D, Cn, G1)))).
  Proof.
    intros [HG1 [HD HCn]] Hall. simpl in HG1, HD, HCn. destruct b; [|split; [exact HG1 | exact Hall]].
    cbv beta iota zeta delta [finish]. set (D' := filter (fun h => negb (same_goal (q, S) h)) D).
    assert (Hsplit : adds_implied D' D q S).
    { intros g Hg. destruct (same_goal (q, S) g) eqn:ES; [right | left; apply filter_In; rewrite ES; auto].
      apply same_goal_spec in ES as [E1 [E2 _]]. split; [symmetry; exact E1 | exact E2]. }
    pose proof (Under_expand A B D' D q S Hsplit Hall) as Hown.
    assert (Hcons : holds (Under A B D') ((q, S) :: Cn)).
    { constructor; [exact Hown|]. eapply Forall_impl; [|exact HCn]. intros g. exact (Under_discharge A B D' D q S _ _ Hsplit Hown). }
    assert (HD' : incl D' W).
    { intros x Hx. apply filter_In in Hx as [Hx Hn]. destruct (HD x Hx) as [<-|Hin]; [|exact Hin]. rewrite same_goal_refl in Hn. discriminate. }
    rewrite orb_false_r. destruct (is_nil D') eqn:EN; (split; [|split; [exact HD'|]]); cbn [gc deps cons].
    - apply Forall_app. split; [|exact HG1]. destruct D'; [exact Hcons | discriminate].
    - constructor; [exact Hown | constructor].
    - exact HG1.
    - constructor; [exact Hown | exact Hcons].
  Qed.

  Lemma downo_sound : forall fuel q S W (G : list goal), holds (Under A B []) G ->
    if_some (Sound q S W) (downo false A B fuel q S W G).
  Proof.
    induction fuel as [|f IH]; intros q S W G HG; [exact I|]. rewrite downo_eq.
    destruct (find (hit q S) W) as [h|] eqn:EW.
    { apply find_some in EW as [Hin Hh]. split; [exact HG|]. simpl. split; [intros x [<-|[]]; exact Hin|].
      constructor; [|constructor]. apply Under_hit. simpl. unfold hit in Hh. rewrite Hh. reflexivity. }
    destruct (in_workset G q S) eqn:EG.
    { split; [exact HG|]. simpl. split; [intros x []|]. constructor; [|constructor].
      exact (Under_trans A B [] G q S HG (Under_hit A B G q S EG)). }
    set (W' := (q, S) :: W).
    pose proof (expand_s_spec (orec false A B f W') A B (level_order W') (fun q' S' st => Under A B (fst (fst st)) q' S')
                  (fun q' S' st st' => Under_weaken A B _ _ q' S')
                  (fun q' S' st => merge_spec W' q' S' st _ (IH q' S' W' (snd st))) q S ([], [], G)) as X.
    destruct (expand_s (orec false A B f W') A B q S ([], [], G)) as [[b [[D Cn] G1]]|]; [|exact I].
    destruct X as [HI [_ Hall]]; [repeat split; [exact HG | intros x [] | constructor]|]. exact (finish_spec q S W b D Cn G1 HI Hall).
  Qed.
End Opt.

Theorem downo_partial_correct A B fuel b : downo_incl false A B fuel = Some b -> (b = true <-> lincl A B).
Proof.
  apply (verdict_fold _ (holds (Under A B []))); [|constructor]. intros q G HG.
  pose proof (downo_sound A B fuel q (finals B) [] G HG) as Hs. destruct (downo false A B fuel q (finals B) [] G) as [r|]; [|exact I].
  destruct Hs as [HG' Hs]. split; [exact HG' | split; [exact I|]]. destruct (ok r); [|exact Hs].
  destruct Hs as [Hi Hc]. exact (Under_weaken A B _ _ _ _ Hi (Forall_inv Hc)).
Qed.

Corollary downo_refines A B fuel b : downo_incl false A B fuel = Some b -> b = incl_dec A B.
Proof. intros H. exact (verdict_refines A B b (downo_partial_correct A B fuel b H)). Qed.

(* careless promotion: consequents proved under the hypothesis (p, {P}) become global although (p, {P}) is still only a hypothesis *)
Theorem downo_careless_refuted :
  downo_incl true trapA trapB 30 = Some true /\ ~ lincl trapA trapB /\ downo_incl false trapA trapB 30 = Some false.
Proof.
  assert (F : downo_incl false trapA trapB 30 = Some false) by (vm_compute; reflexivity).
  split; [vm_compute; reflexivity|]. split; [|exact F].
  intros L. apply (downo_partial_correct _ _ _ _ F) in L. discriminate L.
Qed.
