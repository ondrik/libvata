(* C13 — proofs about the byte-level Timbuk model of TimbukDefs.v: parsing the output of the
   serializer gives the description back (same sections, same order). *)
From Coq Require Import List NArith ZArith Bool Lia.
Import ListNotations.
From V Require Import ListAux TimbukDefs.
Open Scope N_scope.

Lemma frev_rev : forall l, frev l = rev l.
Proof. intro l. symmetry. apply rev_alt. Qed.

Lemma beq_eq : forall a b, beq a b = true <-> a = b.
Proof. exact (list_beq_eq N.eqb N.eqb_eq). Qed.

Lemma has_byte_app : forall c a b, has_byte c (a ++ b) = has_byte c a || has_byte c b.
Proof. intros. apply existsb_app. Qed.

Lemma has_byte_cons : forall x c l, has_byte x (c :: l) = (x =? c) || has_byte x l.
Proof. reflexivity. Qed.

Lemma has_space_app : forall a b, has_space (a ++ b) = has_space a || has_space b.
Proof. intros. apply existsb_app. Qed.

Lemma has_space_cons : forall c l, has_space (c :: l) = is_space c || has_space l.
Proof. reflexivity. Qed.

Lemma forallb_impl : forall {A : Type} {p q : A -> bool} {l},
  (forall x, p x = true -> q x = true) -> forallb p l = true -> forallb q l = true.
Proof. intros A p q l H. rewrite !forallb_forall. auto. Qed.

Lemma forallb_and : forall (A : Type) (p q : A -> bool) l,
  forallb (fun x => p x && q x) l = forallb p l && forallb q l.
Proof.
  induction l; simpl; auto. rewrite IHl. destruct (p a), (q a); simpl; rewrite ?andb_false_r; reflexivity.
Qed.

Lemma andb_negb : forall a b, a && negb b = true -> a = true /\ b = false.
Proof. intros [] []; simpl; auto. Qed.

Lemma existsb_none : forall {A : Type} (p q : A -> bool) {l},
  (forall x, q x = true -> p x = false) -> forallb q l = true -> existsb p l = false.
Proof.
  induction l as [|x l IH]; simpl; intros I H; auto.
  apply andb_true_iff in H as [H1 H2]. rewrite (I x H1), IH; auto.
Qed.

Lemma split_by_cons : forall p l, exists h t, split_by p l = h :: t.
Proof.
  induction l as [|c r IH]; simpl; eauto.
  destruct (p c); eauto. destruct IH as (h & t & E). rewrite E. eauto.
Qed.

Lemma split_by_none : forall p w, existsb p w = false -> split_by p w = [w].
Proof.
  induction w as [|c r IH]; simpl; intro H; auto.
  apply orb_false_iff in H as [H1 H2]. rewrite H1. rewrite IH; auto.
Qed.

Lemma split_by_app : forall p w c r, existsb p w = false -> p c = true ->
  split_by p (w ++ c :: r) = w :: split_by p r.
Proof.
  induction w as [|x w IH]; simpl; intros c r H Hc.
  - rewrite Hc. auto.
  - apply orb_false_iff in H as [H1 H2]. rewrite H1. rewrite IH; auto.
Qed.

Lemma ok_word_sound : forall w, ok_word w = true -> is_nil w = false /\ has_space w = false.
Proof. unfold ok_word. intros w [H%negb_true_iff Hs]%andb_negb. auto. Qed.

Lemma words_nil : words [] = [].
Proof. reflexivity. Qed.

Lemma words_cons : forall w r, ok_word w = true -> words (w ++ 32 :: r) = w :: words r.
Proof.
  intros w r [Hn Hs]%ok_word_sound.
  unfold words. rewrite split_by_app by auto. cbn [filter]. rewrite Hn. reflexivity.
Qed.

Lemma words_single : forall w, ok_word w = true -> words w = [w].
Proof.
  intros w [Hn Hs]%ok_word_sound.
  unfold words. rewrite split_by_none by exact Hs. cbn [filter]. rewrite Hn. reflexivity.
Qed.

Lemma nospace_no10 : forall w, has_space w = false -> has_byte 10 w = false.
Proof.
  induction w as [|c w IH]; intro H; [reflexivity|].
  rewrite has_space_cons in H. apply orb_false_iff in H as [H1 H2].
  rewrite has_byte_cons, (IH H2), orb_false_r.
  destruct (N.eqb_spec 10 c) as [<-|]; [discriminate H1 | reflexivity].
Qed.

Lemma ok_word_no10 : forall w, ok_word w = true -> has_byte 10 w = false.
Proof. intros w H. apply nospace_no10, ok_word_sound, H. Qed.

Definition line_of (l : bytes) (ws : list bytes) : Prop := has_byte 10 l = false /\ words l = ws.

Lemma line_single : forall w, ok_word w = true -> line_of w [w].
Proof. intros w H. split; [apply ok_word_no10 | apply words_single]; exact H. Qed.

Lemma line_cons : forall w r ws, ok_word w = true -> line_of r ws -> line_of (w ++ 32 :: r) (w :: ws).
Proof.
  intros w r ws H [N W]. split.
  - rewrite has_byte_app, (ok_word_no10 w H). exact N.
  - rewrite words_cons, W by exact H. reflexivity.
Qed.

Lemma line_tokens : forall {A : Type} (f : A -> bytes) l, forallb (fun x => ok_word (f x)) l = true ->
  line_of (concat (map (fun x => f x ++ [32]) l)) (map f l).
Proof.
  induction l as [|x l IH]; cbn [map concat forallb]; intro H; [split; reflexivity|].
  apply andb_prop in H as [H1 H2]. rewrite <- app_assoc. exact (line_cons (f x) _ _ H1 (IH H2)).
Qed.

Lemma ltrim_head : forall c l, is_space c = false -> ltrim (c :: l) = c :: l.
Proof. intros; simpl. rewrite H; auto. Qed.

Lemma ltrim_space : forall c l, is_space c = true -> ltrim (c :: l) = ltrim l.
Proof. intros; simpl. rewrite H; auto. Qed.

Lemma ltrim_nospace : forall w, has_space w = false -> ltrim w = w.
Proof. intros [|c w] H; [reflexivity|]. apply ltrim_head. apply orb_false_iff in H as [H _]. exact H. Qed.

Lemma ltrim_word_app : forall w y, ok_word w = true -> ltrim (w ++ y) = w ++ y.
Proof.
  intros w y [Hn Hs]%ok_word_sound. destruct w as [|c w]; [discriminate Hn|].
  apply ltrim_head. apply orb_false_iff in Hs as [Hs _]. exact Hs.
Qed.

Lemma has_space_rev : forall w, has_space (rev w) = has_space w.
Proof.
  induction w; simpl; auto. rewrite has_space_app. simpl. rewrite IHw.
  rewrite orb_false_r. apply orb_comm.
Qed.

Lemma ok_word_rev : forall w, ok_word w = true -> ok_word (rev w) = true.
Proof.
  unfold ok_word. intros w H. rewrite has_space_rev. destruct w; [discriminate H|].
  simpl. destruct (rev w); exact H.
Qed.

Lemma rtrim_nospace : forall w, has_space w = false -> rtrim w = w.
Proof.
  intros w H. unfold rtrim. rewrite !frev_rev, ltrim_nospace; [apply rev_involutive|].
  rewrite has_space_rev. exact H.
Qed.

Lemma rtrim_app_word : forall y w, ok_word w = true -> rtrim (y ++ w) = y ++ w.
Proof.
  intros y w H. unfold rtrim. rewrite !frev_rev, rev_app_distr, ltrim_word_app by (apply ok_word_rev, H).
  rewrite <- rev_app_distr. apply rev_involutive.
Qed.

Lemma rtrim_snoc_space : forall l c, is_space c = true -> rtrim (l ++ [c]) = rtrim l.
Proof. intros l c H. unfold rtrim. rewrite !frev_rev, rev_app_distr. simpl. rewrite H. reflexivity. Qed.

Lemma trim_nospace : forall w, has_space w = false -> trim w = w.
Proof. intros w H. unfold trim. rewrite ltrim_nospace by exact H. apply rtrim_nospace, H. Qed.

Lemma trim_lspace : forall c l, is_space c = true -> trim (c :: l) = trim l.
Proof. intros c l H. unfold trim. rewrite ltrim_space by exact H. reflexivity. Qed.

Lemma trim_rspace : forall l c, is_space c = true -> trim (l ++ [c]) = trim l.
Proof.
  intros l c H. unfold trim. induction l as [|x l IH]; simpl.
  - rewrite H. reflexivity.
  - destruct (is_space x); [exact IH|]. apply (rtrim_snoc_space (x :: l)), H.
Qed.

Lemma trim_framed : forall w y w', ok_word w = true -> ok_word w' = true -> trim (w ++ y ++ w') = w ++ y ++ w'.
Proof.
  intros w y w' H H'. unfold trim. rewrite ltrim_word_app by exact H.
  rewrite app_assoc. apply rtrim_app_word, H'.
Qed.

Lemma break_at_none : forall c w, has_byte c w = false -> break_at c w = None.
Proof.
  induction w as [|x w IH]; simpl; intro H; auto.
  apply orb_false_iff in H as [H1 H2]. rewrite N.eqb_sym, H1. rewrite IH; auto.
Qed.

Lemma break_at_app : forall c w r, has_byte c w = false -> break_at c (w ++ c :: r) = Some (w, r).
Proof.
  induction w as [|x w IH]; simpl; intros r H.
  - rewrite N.eqb_refl. auto.
  - apply orb_false_iff in H as [H1 H2]. rewrite N.eqb_sym, H1. rewrite IH; auto.
Qed.

Lemma no_arrow_cons2 : forall c d r,
  no_arrow (c :: d :: r) = negb ((c =? 45) && (d =? 62)) && no_arrow (d :: r).
Proof. reflexivity. Qed.

Lemma break_arrow_cons2 : forall c d r,
  break_arrow (c :: d :: r) =
  if (c =? 45) && (d =? 62) then Some ([], r)
  else match break_arrow (d :: r) with Some (a, b) => Some (c :: a, b) | None => None end.
Proof. reflexivity. Qed.

Lemma no_arrow_cons : forall c b, c <> 45 -> no_arrow b = true -> no_arrow (c :: b) = true.
Proof.
  intros c [|d b] Hc Hb; [reflexivity|].
  rewrite no_arrow_cons2, Hb. apply N.eqb_neq in Hc. rewrite Hc. reflexivity.
Qed.

Lemma no_arrow_tail : forall c b, no_arrow (c :: b) = true -> no_arrow b = true.
Proof.
  intros c [|d b] H; [reflexivity|]. rewrite no_arrow_cons2 in H. apply andb_true_iff in H as [_ H]. exact H.
Qed.

Lemma no_arrow_sep : forall a c b, no_arrow a = true -> no_arrow b = true -> c <> 45 -> c <> 62 ->
  no_arrow (a ++ c :: b) = true.
Proof.
  induction a as [|x a IH]; intros c b Ha Hb C45 C62; [apply no_arrow_cons; assumption|].
  destruct a as [|y a]; cbn [app]; rewrite no_arrow_cons2.
  - apply N.eqb_neq in C62. rewrite C62, andb_false_r. apply no_arrow_cons; assumption.
  - rewrite no_arrow_cons2 in Ha. apply andb_prop in Ha as [-> Ha]. apply (IH c b Ha Hb C45 C62).
Qed.

Lemma break_arrow_app : forall x y, no_arrow x = true -> break_arrow (x ++ 45 :: 62 :: y) = Some (x, y).
Proof.
  induction x as [|c x IH]; intros y H; [reflexivity|].
  pose proof (IH y (no_arrow_tail _ _ H)) as E.
  destruct x as [|d x]; cbn [app] in *; rewrite break_arrow_cons2, E.
  - rewrite andb_false_r. reflexivity.
  - rewrite no_arrow_cons2 in H. apply andb_true_iff in H as [H _]. apply negb_true_iff in H. rewrite H. reflexivity.
Qed.

(* integers: Convert::FromString<int> (Convert::ToString n) = n *)
Lemma is_digit_range : forall c, is_digit c = true -> 48 <= c <= 57.
Proof. unfold is_digit. intros c [H1%N.leb_le H2%N.leb_le]%andb_prop. auto. Qed.

Lemma digits_rev_S : forall f n,
  digits_rev (S f) n = (48 + n mod 10) :: (if n / 10 =? 0 then [] else digits_rev f (n / 10)).
Proof. reflexivity. Qed.

Lemma digits_rev_digits : forall f n, forallb is_digit (digits_rev f n) = true.
Proof.
  induction f; intro n; [reflexivity|]. rewrite digits_rev_S. cbn [forallb].
  apply andb_true_iff. split; [|destruct (n / 10 =? 0); auto].
  pose proof (N.mod_lt n 10) as M. apply andb_true_iff. rewrite !N.leb_le.
  (* as a variable of N: lia does not see that n mod 10 is not negative *)
  generalize dependent (n mod 10). intros. lia.
Qed.

Lemma acc_digit_div : forall n, n < int_cap -> acc_digit (n / 10) (48 + n mod 10) = n.
Proof.
  intros n H. unfold acc_digit. replace (n / 10 * 10 + (48 + n mod 10 - 48)) with n.
  - apply N.leb_gt in H. cbv zeta. rewrite H. reflexivity.
  - pose proof (N.div_mod n 10) as E. generalize dependent (n mod 10). generalize dependent (n / 10). intros. lia.
Qed.

Lemma digits_rev_value : forall f n, n < 2 ^ N.of_nat f -> n < int_cap ->
  fold_left acc_digit (rev (digits_rev (S f) n)) 0 = n.
Proof.
  induction f; intros n H C.
  - assert (n = 0) by (simpl in H; lia). subst. reflexivity.
  - rewrite digits_rev_S. cbn [rev]. rewrite fold_left_app. cbn [fold_left].
    replace (fold_left _ _ 0) with (n / 10); [apply acc_digit_div, C|].
    destruct (n / 10 =? 0) eqn:Z; [apply N.eqb_eq in Z; auto|].
    rewrite Nat2N.inj_succ, N.pow_succ_r' in H. symmetry. apply IHf.
    + apply N.div_lt_upper_bound; lia.
    + apply N.le_lt_trans with n; [apply N.div_le_upper_bound; lia | exact C].
Qed.

Lemma show_N_value : forall n, n < int_cap -> digits_value (show_N n) = n.
Proof.
  intros n H. unfold digits_value, show_N. rewrite frev_rev.
  apply digits_rev_value; [|exact H]. rewrite N2Nat.id. apply N.size_gt.
Qed.

Lemma show_N_digits : forall n, forallb is_digit (show_N n) = true.
Proof.
  intro n. unfold show_N; rewrite frev_rev. apply forallb_forall. intros x Hx. apply in_rev in Hx.
  pose proof (digits_rev_digits (S (N.to_nat (N.size n))) n) as D.
  rewrite forallb_forall in D. auto.
Qed.

Lemma show_N_nonnil : forall n, is_nil (show_N n) = false.
Proof. intro n. unfold show_N. rewrite frev_rev, digits_rev_S. cbn [rev]. set (l := rev _). destruct l; reflexivity. Qed.

Lemma take_digits_all : forall l, forallb is_digit l = true -> take_digits l = l.
Proof. induction l; simpl; intro H; auto. apply andb_true_iff in H as [H1 H2]. rewrite H1, IHl; auto. Qed.

Lemma parse_digits_show : forall (neg : bool) n, n <= (if neg then 2147483648 else 2147483647) ->
  parse_digits neg (show_N n) = Some (if neg then (- Z.of_N n)%Z else Z.of_N n).
Proof.
  intros neg n H. unfold parse_digits. cbv zeta.
  rewrite take_digits_all, show_N_nonnil by apply show_N_digits.
  rewrite show_N_value by (unfold int_cap; destruct neg; lia).
  apply N.leb_le in H. destruct neg; rewrite H; reflexivity.
Qed.

Lemma parse_int_digits : forall s, forallb is_digit s = true -> parse_int s = parse_digits false s.
Proof.
  intros [|c r] H; [reflexivity|]. simpl in H. apply andb_true_iff in H as [H _]. apply is_digit_range in H.
  unfold parse_int. destruct (N.eqb_spec c 45); [lia|]. destruct (N.eqb_spec c 43); [lia|]. reflexivity.
Qed.

Lemma parse_int_show : forall z, in_int_range z = true -> parse_int (show_int z) = Some z.
Proof.
  unfold in_int_range. intros z [H1%Z.leb_le H2%Z.leb_le]%andb_prop.
  destruct z as [|p|p]; simpl show_int.
  - reflexivity.
  - rewrite parse_int_digits by apply show_N_digits. apply (parse_digits_show false). lia.
  - unfold parse_int. rewrite N.eqb_refl. apply (parse_digits_show true). lia.
Qed.

Lemma digit_not_space : forall c, is_digit c = true -> is_space c = false.
Proof.
  intros c H%is_digit_range. apply orb_false_iff. split; [apply N.eqb_neq; lia|].
  apply andb_false_iff. right. apply N.leb_gt. lia.
Qed.

Lemma show_int_nospace : forall z, has_space (show_int z) = false.
Proof.
  (* the sign '-' is passed by computation *)
  intros [|p|p]; exact (existsb_none _ is_digit digit_not_space (show_N_digits _)).
Qed.

Lemma wf_opsym_sound : forall s, wf_opsym s = true ->
  ok_word (fst s) = true /\ has_byte 58 (fst s) = false /\ in_int_range (snd s) = true.
Proof. unfold wf_opsym. intros s [[A B]%andb_negb C]%andb_prop. auto. Qed.

Lemma wf_state_sound : forall w, wf_state w = true -> ok_word w = true /\ has_byte 58 w = false.
Proof. unfold wf_state. intros w H%andb_negb. exact H. Qed.

Lemma ok_word_ser_sym : forall s, ok_word (fst s) = true -> ok_word (ser_sym s) = true.
Proof.
  intros s [Hn Hs]%ok_word_sound.
  unfold ok_word, ser_sym. apply andb_true_iff; split; apply negb_true_iff.
  - destruct (fst s); [discriminate Hn|reflexivity].
  - rewrite !has_space_app, Hs. apply (show_int_nospace (snd s)).
Qed.

Lemma parse_colonned_sym : forall s, wf_opsym s = true -> parse_colonned (ser_sym s) = Some s.
Proof.
  intros s H. apply wf_opsym_sound in H as (H1 & H2 & H3).
  unfold parse_colonned, ser_sym. simpl app. rewrite break_at_app by auto.
  rewrite parse_int_show by auto. destruct s; reflexivity.
Qed.

Lemma parse_colonned_state : forall w, has_byte 58 w = false -> parse_colonned w = Some (w, (-1)%Z).
Proof. intros w H. unfold parse_colonned. rewrite break_at_none; auto. Qed.

Lemma map_opt_syms : forall l, forallb wf_opsym l = true -> map_opt parse_colonned (map ser_sym l) = Some l.
Proof.
  induction l; simpl; intro H; auto. apply andb_true_iff in H as [H1 H2].
  rewrite parse_colonned_sym, IHl; auto.
Qed.

Lemma map_opt_states : forall l, forallb wf_state l = true ->
  map_opt parse_colonned l = Some (map (fun w => (w, (-1)%Z)) l).
Proof.
  induction l; simpl; intro H; auto. apply andb_true_iff in H as [H1 H2].
  rewrite parse_colonned_state, IHl; auto. apply wf_state_sound, H1.
Qed.

Lemma ok_out_name : forall d, has_space (d_name d) = false -> ok_word (out_name d) = true.
Proof.
  intros d H. unfold out_name. destruct (d_name d) eqn:E; [reflexivity|].
  cbn [is_nil]. unfold ok_word. rewrite H. reflexivity.
Qed.

Lemma line_ops_words : forall d, forallb wf_opsym (d_syms d) = true ->
  line_of (line_ops d) (kw_Ops :: map ser_sym (d_syms d)).
Proof.
  intros d H. apply (line_cons kw_Ops); [reflexivity|]. apply (line_tokens ser_sym).
  revert H. apply forallb_impl. intros s H. apply ok_word_ser_sym, wf_opsym_sound, H.
Qed.

Lemma line_aut_words : forall d, has_space (d_name d) = false ->
  line_of (line_aut d) [kw_Automaton; out_name d].
Proof. intros d H. apply (line_cons kw_Automaton); [reflexivity|]. apply line_single, ok_out_name, H. Qed.

Lemma state_list_words : forall l, forallb wf_state l = true ->
  line_of (concat (map (fun s => s ++ [32]) l)) l.
Proof.
  intros l H. pose proof (line_tokens (fun s => s) l) as T. rewrite map_id in T. apply T.
  revert H. apply forallb_impl. intros w Hw. apply wf_state_sound, Hw.
Qed.

Lemma line_states_words : forall d, forallb wf_state (d_states d) = true ->
  line_of (line_states d) (kw_States :: d_states d).
Proof. intros d H. apply (line_cons kw_States); [reflexivity|]. apply state_list_words, H. Qed.

Lemma line_finals_words : forall d, forallb wf_state (d_finals d) = true ->
  line_of (line_finals d) (kw_Final :: kw_States :: d_finals d).
Proof.
  intros d H. apply (line_cons kw_Final); [reflexivity|]. apply (line_cons kw_States); [reflexivity|].
  apply state_list_words, H.
Qed.

Lemma ph_ops : forall {l args}, words l = kw_Ops :: map ser_sym args -> forallb wf_opsym args = true ->
  forall rest a s f nm sy0 st fi,
  parse_header (l :: rest) (mkHdr a false s f nm sy0 st fi) = parse_header rest (mkHdr a true s f nm args st fi).
Proof.
  intros l args W H rest a s f nm sy0 st fi. cbn [parse_header]. rewrite W. simpl.
  rewrite map_opt_syms by exact H. reflexivity.
Qed.

Lemma ph_aut : forall {l nm}, words l = [kw_Automaton; nm] ->
  forall rest o s f nm0 sy st fi,
  parse_header (l :: rest) (mkHdr false o s f nm0 sy st fi) = parse_header rest (mkHdr true o s f nm sy st fi).
Proof. intros l nm W rest o s f nm0 sy st fi. cbn [parse_header]. rewrite W. reflexivity. Qed.

Lemma ph_states : forall {l args}, words l = kw_States :: args -> forallb wf_state args = true ->
  forall rest a o f nm sy st0 fi,
  parse_header (l :: rest) (mkHdr a o false f nm sy st0 fi) = parse_header rest (mkHdr a o true f nm sy args fi).
Proof.
  intros l args W H rest a o f nm sy st0 fi. cbn [parse_header]. rewrite W. simpl.
  rewrite map_opt_states, map_map, map_id by exact H. reflexivity.
Qed.

Lemma ph_finals : forall {l args}, words l = kw_Final :: kw_States :: args -> forallb wf_state args = true ->
  forall rest a o s nm sy st fi0,
  parse_header (l :: rest) (mkHdr a o s false nm sy st fi0) = parse_header rest (mkHdr a o s true nm sy st args).
Proof.
  intros l args W H rest a o s nm sy st fi0. cbn [parse_header]. rewrite W. simpl.
  rewrite map_opt_states, map_map, map_id by exact H. reflexivity.
Qed.

Lemma ph_transitions : forall rest h, parse_header (kw_Transitions :: rest) h = Some (h, rest).
Proof. reflexivity. Qed.

Lemma wf_child_sound : forall w, wf_child w = true ->
  has_space w = false /\ has_byte 44 w = false /\ has_byte 41 w = false /\ no_arrow w = true.
Proof. unfold wf_child. intros w [[[A%negb_true_iff B]%andb_negb C]%andb_negb D]%andb_prop. auto. Qed.

Lemma wf_tsym_sound : forall w, wf_tsym w = true ->
  ok_word w = true /\ has_byte 40 w = false /\ has_byte 41 w = false /\ no_arrow w = true.
Proof. unfold wf_tsym. intros w [[[A B]%andb_negb C]%andb_negb D]%andb_prop. auto. Qed.

Lemma wf_trans_sound : forall t, wf_trans t = true ->
  wf_tsym (t_sym t) = true /\ forallb wf_child (t_ch t) = true /\
  t_ch t <> [[]] /\ ok_word (t_par t) = true.
Proof.
  unfold wf_trans. intros t [[[H1 H2]%andb_prop H3]%andb_prop H4]%andb_prop.
  repeat split; auto. intro E. rewrite E in H3. discriminate H3.
Qed.

(* [parse_trans_line] on a line in any layout, without and with a tuple of children: [b] and [a] are the
   text before and after the first "->", [sym] and [par] what trimming leaves of them *)
Lemma parse_trans_line_nullary : forall b a sym par, no_arrow b = true -> trim b = sym -> trim a = par ->
  wf_tsym sym = true -> ok_word par = true ->
  parse_trans_line (b ++ 45 :: 62 :: a) = Some (mkTrans [] sym par).
Proof.
  intros b a sym par Hb <- <-. unfold parse_trans_line. rewrite (break_arrow_app b a Hb).
  generalize (trim b) (trim a). clear. intros sym par ([Sn Ss]%ok_word_sound & S40 & S41 & _)%wf_tsym_sound [Pn Ps]%ok_word_sound.
  rewrite Pn, Ps, (break_at_none 40 sym S40), S41, Ss, Sn. reflexivity.
Qed.

Lemma parse_trans_line_tuple : forall b a sym tup chs par, no_arrow b = true ->
  trim b = sym ++ 40 :: tup ++ [41] -> trim a = par -> wf_tsym sym = true -> has_byte 41 tup = false ->
  map trim (split_at 44 tup) = chs -> existsb has_space chs = false -> chs <> [[]] -> ok_word par = true ->
  parse_trans_line (b ++ 45 :: 62 :: a) = Some (mkTrans chs sym par).
Proof.
  intros b a sym tup chs par Hb Eb <- ([Sn Ss]%ok_word_sound & S40 & S41 & _)%wf_tsym_sound T41 Ech Hsp Hne.
  unfold parse_trans_line. rewrite (break_arrow_app b a Hb), Eb.
  generalize (trim a). clear Eb Hb. intros par [Pn Ps]%ok_word_sound.
  rewrite Pn, Ps, (break_at_app 40 sym _ S40), S41, (break_at_app 41 tup [] T41), (trim_nospace sym Ss), Sn, Ech, Hsp.
  destruct chs as [|[|] [|]]; try reflexivity. destruct Hne. reflexivity.
Qed.

(* the text between the parentheses: the children c0, cs joined by ", " *)
Definition tupstr (c0 : bytes) (cs : list bytes) : bytes := c0 ++ concat (map (fun c => [44;32] ++ c) cs).

Lemma tupstr_nil : forall c0, tupstr c0 [] = c0.
Proof. intros. apply app_nil_r. Qed.

Lemma tupstr_cons : forall c0 c1 cs, tupstr c0 (c1 :: cs) = c0 ++ 44 :: tupstr (32 :: c1) cs.
Proof. reflexivity. Qed.

Lemma ser_tuple_cons : forall c0 cs, ser_tuple (c0 :: cs) = 40 :: tupstr c0 cs ++ [41].
Proof. reflexivity. Qed.

Local Opaque tupstr.

Lemma tupstr_no_arrow : forall cs c0, no_arrow c0 = true -> forallb wf_child cs = true ->
  no_arrow (tupstr c0 cs) = true.
Proof.
  induction cs as [|c1 cs IH]; intros c0 H0 H.
  - rewrite tupstr_nil. exact H0.
  - simpl in H. apply andb_true_iff in H as [H1 H2]. apply wf_child_sound in H1 as (_ & _ & _ & H1).
    rewrite tupstr_cons. apply no_arrow_sep; auto; try discriminate.
    apply IH; auto. apply no_arrow_cons; auto. discriminate.
Qed.

Lemma tupstr_no_byte : forall x, x <> 44 -> x <> 32 -> (forall c, wf_child c = true -> has_byte x c = false) ->
  forall cs c0, has_byte x c0 = false -> forallb wf_child cs = true -> has_byte x (tupstr c0 cs) = false.
Proof.
  intros x X44 X32 Hx. apply N.eqb_neq in X44, X32.
  induction cs as [|c1 cs IH]; intros c0 H0 H.
  - rewrite tupstr_nil. exact H0.
  - simpl in H. apply andb_true_iff in H as [H1 H2].
    rewrite tupstr_cons, has_byte_app, H0, has_byte_cons, X44. apply IH; auto.
    rewrite has_byte_cons, X32. apply Hx, H1.
Qed.

Lemma tupstr_children : forall cs c0, has_byte 44 c0 = false -> forallb wf_child cs = true ->
  map trim (split_at 44 (tupstr c0 cs)) = trim c0 :: cs.
Proof.
  induction cs as [|c1 cs IH]; intros c0 H0 H; unfold split_at in *.
  - rewrite tupstr_nil, split_by_none by exact H0. reflexivity.
  - simpl in H. apply andb_true_iff in H as [H1 H2]. apply wf_child_sound in H1 as (S1 & C1 & _).
    rewrite tupstr_cons, split_by_app by auto. cbn [map]. rewrite IH by auto.
    rewrite trim_lspace, (trim_nospace c1 S1) by reflexivity. reflexivity.
Qed.

Lemma ser_trans_shape : forall t,
  ser_trans t = ((t_sym t ++ ser_tuple (t_ch t)) ++ [32]) ++ 45 :: 62 :: 32 :: t_par t.
Proof. intro t. unfold ser_trans. rewrite <- !app_assoc. reflexivity. Qed.

Lemma parse_trans_line_ser : forall t, wf_trans t = true -> parse_trans_line (ser_trans t) = Some t.
Proof.
  intros [ch sym par] (Hsym & Hch & Hone & Hpar)%wf_trans_sound. rewrite ser_trans_shape. cbn [t_ch t_sym t_par] in *.
  destruct (wf_tsym_sound sym Hsym) as (Sw & _ & S41 & Sarr).
  assert (Ta : trim (32 :: par) = par).
  { rewrite trim_lspace by reflexivity. apply trim_nospace, ok_word_sound, Hpar. }
  destruct ch as [|c0 cs].
  - cbn [ser_tuple]. rewrite app_nil_r. apply parse_trans_line_nullary; auto.
    + apply no_arrow_sep; auto; discriminate.
    + rewrite trim_rspace by reflexivity. apply trim_nospace, ok_word_sound, Sw.
  - pose proof (existsb_none has_space _ (fun c Hc => proj1 (wf_child_sound c Hc)) Hch) as Hsp.
    cbn [forallb] in Hch. apply andb_prop in Hch as [Hc0 Hcs].
    apply wf_child_sound in Hc0 as (C0s & C044 & C041 & C0arr).
    rewrite ser_tuple_cons. apply (parse_trans_line_tuple _ _ sym (tupstr c0 cs)); auto.
    + rewrite <- app_assoc. repeat (apply no_arrow_sep; auto; try discriminate). apply tupstr_no_arrow; auto.
    + rewrite trim_rspace by reflexivity. apply (trim_framed sym (40 :: tupstr c0 cs) [41]); auto.
    + apply tupstr_no_byte; auto; try discriminate. intros c Hc. apply (wf_child_sound c Hc).
    + rewrite tupstr_children, (trim_nospace c0) by auto. reflexivity.
Qed.

Lemma no10_ser_trans : forall t, wf_trans t = true -> has_byte 10 (ser_trans t) = false.
Proof.
  intros t H. apply wf_trans_sound in H as (Hs & Hc & _ & Hp). apply wf_tsym_sound in Hs as (Sw & _).
  unfold ser_trans. rewrite !has_byte_app, (ok_word_no10 _ Sw), (ok_word_no10 _ Hp).
  cbn [orb]. rewrite orb_false_r.
  destruct (t_ch t) as [|c0 cs]; [reflexivity|].
  cbn [forallb] in Hc. apply andb_true_iff in Hc as [Hc0 Hcs].
  assert (N : forall c, wf_child c = true -> has_byte 10 c = false).
  { intros c Hc. apply nospace_no10, (wf_child_sound c Hc). }
  rewrite ser_tuple_cons, has_byte_cons, has_byte_app. rewrite tupstr_no_byte; auto; discriminate.
Qed.

Lemma split_line : forall l r, has_byte 10 l = false -> split_at 10 (l ++ [10] ++ r) = l :: split_at 10 r.
Proof. intros l r H. unfold split_at. apply split_by_app; auto. Qed.

Lemma ser_trans_trim : forall t, wf_trans t = true ->
  trim (ser_trans t) = ser_trans t /\ is_nil (ser_trans t) = false.
Proof.
  intros t H. apply wf_trans_sound in H as (Hs & _ & _ & Hp). apply wf_tsym_sound in Hs as (Sw & _).
  unfold ser_trans. split.
  - rewrite (app_assoc (ser_tuple _)). apply trim_framed; auto.
  - apply ok_word_sound in Sw as [Sn _]. destruct (t_sym t); [discriminate Sn|reflexivity].
Qed.

Lemma parse_trans_text : forall ts, forallb wf_trans ts = true ->
  parse_trans_lines (split_at 10 (concat (map (fun t => ser_trans t ++ [10]) ts))) = Some ts.
Proof.
  induction ts as [|t ts IH]; cbn [forallb map concat]; intro H; [reflexivity|].
  apply andb_prop in H as [H1 H2]. rewrite <- app_assoc, split_line by apply (no10_ser_trans t H1).
  cbn [parse_trans_lines]. destruct (ser_trans_trim t H1) as [-> ->].
  rewrite (parse_trans_line_ser t H1), (IH H2). reflexivity.
Qed.

Definition normal_name (d : desc) : desc :=
  mkDesc (out_name d) (d_syms d) (d_states d) (d_finals d) (d_trans d).

Lemma wf_desc_sound : forall d, wf_desc d = true ->
  has_space (d_name d) = false /\ forallb wf_opsym (d_syms d) = true /\ forallb wf_state (d_states d) = true /\
  forallb wf_state (d_finals d) = true /\ forallb wf_trans (d_trans d) = true.
Proof.
  unfold wf_desc. intros d [[[[A%negb_true_iff B]%andb_prop C]%andb_prop D]%andb_prop E]%andb_prop. auto.
Qed.

Lemma lines_serialize : forall d, wf_desc d = true ->
  split_at 10 (serialize d) =
  line_ops d :: line_aut d :: line_states d :: line_finals d :: kw_Transitions ::
  split_at 10 (concat (map (fun t => ser_trans t ++ [10]) (d_trans d))).
Proof.
  intros d H. apply wf_desc_sound in H as (Hn & Ho & Hs & Hf & _). unfold serialize.
  rewrite split_line by exact (proj1 (line_ops_words d Ho)).
  rewrite split_line by exact (proj1 (line_aut_words d Hn)).
  rewrite split_line by exact (proj1 (line_states_words d Hs)).
  rewrite split_line by exact (proj1 (line_finals_words d Hf)).
  rewrite split_line by reflexivity. reflexivity.
Qed.

Lemma parse_header_serialize : forall d rest, wf_desc d = true ->
  parse_header (line_ops d :: line_aut d :: line_states d :: line_finals d :: kw_Transitions :: rest) hdr0 =
  Some (mkHdr true true true true (out_name d) (d_syms d) (d_states d) (d_finals d), rest).
Proof.
  intros d rest H. apply wf_desc_sound in H as (Hn & Ho & Hs & Hf & _). unfold hdr0.
  rewrite (ph_ops (proj2 (line_ops_words d Ho)) Ho).
  rewrite (ph_aut (proj2 (line_aut_words d Hn))).
  rewrite (ph_states (proj2 (line_states_words d Hs)) Hs).
  rewrite (ph_finals (proj2 (line_finals_words d Hf)) Hf).
  apply ph_transitions.
Qed.

Theorem parse_serialize_exact : forall d, wf_desc d = true -> parse (serialize d) = Some (normal_name d).
Proof.
  intros d H. unfold parse. rewrite lines_serialize, parse_header_serialize by exact H.
  apply wf_desc_sound in H as (_ & _ & _ & _ & Ht). rewrite (parse_trans_text _ Ht). reflexivity.
Qed.

Theorem parse_serialize : forall d, wf_desc d = true ->
  exists d', parse (serialize d) = Some d' /\ d_finals d' = d_finals d /\ d_trans d' = d_trans d /\
             d_syms d' = d_syms d /\ d_states d' = d_states d.
Proof. intros d H. exists (normal_name d). rewrite parse_serialize_exact by auto. repeat split; reflexivity. Qed.

Lemma wf_name_sound : forall w, wf_name w = true ->
  ok_word w = true /\ has_byte 40 w = false /\ has_byte 41 w = false /\ has_byte 44 w = false /\
  has_byte 58 w = false /\ no_arrow w = true.
Proof.
  unfold wf_name. intros w [[[[[A B]%andb_negb C]%andb_negb D]%andb_negb E]%andb_negb F]%andb_prop. auto 10.
Qed.

Lemma wf_name_state : forall w, wf_name w = true -> wf_state w = true.
Proof. intros w H. apply wf_name_sound in H as (A & _ & _ & _ & B & _). unfold wf_state. rewrite A, B. reflexivity. Qed.

Lemma wf_name_tsym : forall w, wf_name w = true -> wf_tsym w = true.
Proof.
  intros w H. apply wf_name_sound in H as (A & B & C & _ & _ & D). unfold wf_tsym. rewrite A, B, C, D. reflexivity.
Qed.

Lemma wf_name_child : forall w, wf_name w = true -> wf_child w = true.
Proof.
  intros w H. apply wf_name_sound in H as (A & _ & B & C & _ & D). apply ok_word_sound in A as [_ A].
  unfold wf_child. rewrite A, B, C, D. reflexivity.
Qed.

Lemma wf_name_opsym : forall s, wf_name (fst s) && in_int_range (snd s) = true -> wf_opsym s = true.
Proof.
  intros s [(A & _ & _ & _ & B & _)%wf_name_sound R]%andb_prop. unfold wf_opsym. rewrite A, B, R. reflexivity.
Qed.

Lemma wf_name_trans : forall t, wf_name (t_sym t) && forallb wf_name (t_ch t) && wf_name (t_par t) = true ->
  wf_trans t = true.
Proof.
  intros t [[Hy Hc]%andb_prop (P & _)%wf_name_sound]%andb_prop. unfold wf_trans.
  rewrite (wf_name_tsym _ Hy), (forallb_impl wf_name_child Hc), P, andb_true_r. cbn [andb].
  destruct (t_ch t) as [|c [|c' cs]]; auto. cbn [forallb] in Hc. rewrite andb_true_r in Hc.
  apply wf_name_sound in Hc as ([C _]%ok_word_sound & _). rewrite C. reflexivity.
Qed.

Lemma wf_uniform : forall d, wf_desc_uniform d = true -> wf_desc d = true.
Proof.
  unfold wf_desc_uniform, wf_desc. intros d [[[[-> Ho]%andb_prop Hs]%andb_prop Hf]%andb_prop Ht]%andb_prop.
  rewrite (forallb_impl wf_name_opsym Ho), (forallb_impl wf_name_state Hs), (forallb_impl wf_name_state Hf),
    (forallb_impl wf_name_trans Ht). reflexivity.
Qed.

Lemma lbeq_eq : forall a b, lbeq a b = true <-> a = b.
Proof. exact (list_beq_eq beq beq_eq). Qed.

Lemma trans_eqb_eq : forall s t, trans_eqb s t = true <-> s = t.
Proof.
  intros [c1 s1 p1] [c2 s2 p2]. unfold trans_eqb. simpl. split.
  - intros [[->%lbeq_eq ->%beq_eq]%andb_prop ->%beq_eq]%andb_prop. reflexivity.
  - intros [= -> -> ->]. rewrite (proj2 (lbeq_eq c2 c2)), !(proj2 (beq_eq _ _)); reflexivity.
Qed.

Section Membership.
  Context {A : Type} {eqb : A -> A -> bool}.
  Hypothesis eqb_eq : forall a b, eqb a b = true <-> a = b.
  Let sub (l m : list A) := forallb (fun x => existsb (eqb x) m) l.

  Lemma sub_incl : forall l m, sub l m = true <-> incl l m.
  Proof. exact (forallb_mem_incl _ (existsb_eqb eqb eqb_eq)). Qed.

  Lemma same_equiv : forall l m, sub l m && sub m l = true <-> (forall x, In x l <-> In x m).
  Proof.
    intros l m. rewrite andb_true_iff, !sub_incl.
    split; [intros [H1 H2] x; split; auto | intro H; split; intros x; apply H].
  Qed.
End Membership.

Lemma mem_b_In : forall x l, mem_b x l = true <-> In x l.
Proof. exact (existsb_eqb beq beq_eq). Qed.
Lemma mem_t_In : forall x l, mem_t x l = true <-> In x l.
Proof. exact (existsb_eqb trans_eqb trans_eqb_eq). Qed.
Lemma sub_b_spec : forall l m, sub_b l m = true <-> incl l m.
Proof. exact (sub_incl beq_eq). Qed.
Lemma sub_t_spec : forall l m, sub_t l m = true <-> incl l m.
Proof. exact (sub_incl trans_eqb_eq). Qed.
Lemma same_b_spec : forall l m, same_b l m = true <-> (forall x, In x l <-> In x m).
Proof. exact (same_equiv beq_eq). Qed.
Lemma same_t_spec : forall l m, same_t l m = true <-> (forall x, In x l <-> In x m).
Proof. exact (same_equiv trans_eqb_eq). Qed.

Theorem desc_same_spec : forall d e, desc_same d e = true <->
  (forall q, In q (d_finals d) <-> In q (d_finals e)) /\ (forall t, In t (d_trans d) <-> In t (d_trans e)).
Proof. intros d e. unfold desc_same. rewrite andb_true_iff, same_b_spec, same_t_spec. reflexivity. Qed.

Lemma desc_same_refl : forall d, desc_same d d = true.
Proof. intro d. apply desc_same_spec. split; reflexivity. Qed.

Theorem text_denotes_spec : forall txt d, text_denotes txt d = true <->
  exists e, parse txt = Some e /\
            (forall q, In q (d_finals e) <-> In q (d_finals d)) /\ (forall t, In t (d_trans e) <-> In t (d_trans d)).
Proof.
  intros txt d. unfold text_denotes. destruct (parse txt) as [e|].
  - split; [intros H%desc_same_spec; eauto|]. intros (e' & [= <-] & H). apply desc_same_spec, H.
  - split; [discriminate|]. intros (e' & E & _). discriminate.
Qed.

(* the canonical text of a well-formed description passes the gate: an implementation that
   writes what the model writes is accepted *)
Theorem model_text_denotes : forall d, wf_desc d = true -> text_denotes (serialize d) d = true.
Proof. intros d H. unfold text_denotes. rewrite parse_serialize_exact by exact H. exact (desc_same_refl d). Qed.

Theorem fa_same_spec : forall d e, fa_same d e = true <->
  (forall q, In q (d_finals d) <-> In q (d_finals e)) /\
  (forall t, nullary t = false -> (In t (d_trans d) <-> In t (d_trans e))) /\
  (forall t, nullary t = true -> In t (d_trans e) -> In t (d_trans d)) /\
  (forall t, nullary t = true -> In t (d_trans d) ->
     exists t', nullary t' = true /\ In t' (d_trans e) /\ t_par t' = t_par t).
Proof.
  intros d e. unfold fa_same. split.
  - intros [[[A B]%andb_prop C%sub_t_spec]%andb_prop D%sub_b_spec]%andb_prop.
    split; [exact (proj1 (same_b_spec _ _) A)|]. split; [|split]; intros t N.
    + apply negb_true_iff in N. split; intro I; eapply filter_In, (proj1 (same_t_spec _ _) B), filter_In; auto.
    + intro I. apply C, filter_In. auto.
    + intro I. assert (X : In (t_par t) (map t_par (filter nullary (d_trans d)))) by (apply in_map, filter_In; auto).
      apply D, in_map_iff in X as (t' & E & [I' N']%filter_In). eauto.
  - intros (A & B & C & D). apply andb_true_intro; split; [apply andb_true_intro; split; [apply andb_true_intro; split|]|].
    + apply same_b_spec, A.
    + apply same_t_spec. intro t.
      split; intros [I N]%filter_In; apply filter_In; (split; [apply (B t), I; apply negb_true_iff, N | exact N]).
    + apply sub_t_spec. intros t [I N]%filter_In. auto.
    + apply sub_b_spec. intros q (t & <- & [I N]%filter_In)%in_map_iff.
      destruct (D t N I) as (t' & N' & I' & <-). apply in_map, filter_In. auto.
Qed.

Lemma fa_same_picked : forall d ns,
  (forall t, In t ns -> In t (d_trans d) /\ nullary t = true) ->
  (forall t, In t (d_trans d) -> nullary t = true -> exists t', In t' ns /\ t_par t' = t_par t) ->
  fa_same d (mkDesc [] [] [] (d_finals d) (ns ++ filter (fun t => negb (nullary t)) (d_trans d))) = true.
Proof.
  intros d ns Hin Hpar. apply fa_same_spec. cbn [d_finals d_trans].
  split; [intro; reflexivity|]. split; [|split]; intros t Nt.
  - split; [intro I; apply in_or_app; right; apply filter_In; rewrite Nt; auto|].
    intros [[_ N]%Hin|[I _]%filter_In]%in_app_or; [congruence | exact I].
  - intros [[I _]%Hin|[_ X]%filter_In]%in_app_or; [exact I | rewrite Nt in X; discriminate X].
  - intro It. destruct (Hpar t It Nt) as (t' & I' & E). destruct (Hin t' I') as [_ Nt'].
    exists t'. split; [exact Nt'|]. split; [apply in_or_app; left; exact I' | exact E].
Qed.

(* the reserved bytes are needed: one description for each exclusion of wf_desc that does not
   come back (checked by evaluation) *)
Definition roundtrips (d : desc) : bool :=
  match parse (serialize d) with Some e => desc_same e d | None => false end.
Definition d_of_rule (ch : list bytes) (sy pa : bytes) (fin : list bytes) : desc :=
  mkDesc [] [] [] fin [mkTrans ch sy pa].
Lemma reserved_needed :
  roundtrips (d_of_rule [] [97] [113] [[113;58;49]]) = false /\        (* ':' in a final state *)
  roundtrips (d_of_rule [] [97] [113] [[113;32;114]]) = false /\       (* blank in a final state *)
  roundtrips (d_of_rule [] [97] [113] [[]]) = false /\                 (* empty final state *)
  roundtrips (d_of_rule [[113;44;114]] [102] [113] []) = false /\      (* ',' in a child *)
  roundtrips (d_of_rule [[113;41]] [102] [113] []) = false /\          (* ')' in a child *)
  roundtrips (d_of_rule [[]] [102] [113] []) = false /\                (* a single empty child *)
  roundtrips (d_of_rule [[113]] [102;40] [113] []) = false /\          (* '(' in a symbol *)
  roundtrips (d_of_rule [] [97;41] [113] []) = false /\                (* ')' in a symbol *)
  roundtrips (d_of_rule [] [97;45;62;98] [113] []) = false /\          (* "->" in a symbol *)
  roundtrips (d_of_rule [[113;45;62]] [102] [113] []) = false /\       (* "->" in a child *)
  roundtrips (d_of_rule [] [97] [113;9;114] []) = false /\             (* tab in the parent *)
  roundtrips (d_of_rule [] [97] [] []) = false /\                      (* empty parent *)
  roundtrips (d_of_rule [] [] [113] []) = false /\                     (* empty symbol *)
  (* while these are fine: ',' ':' in a transition symbol, '(' ':' in a child, anything but blanks in the parent *)
  roundtrips (d_of_rule [[40;113;58]; []; [114]] [102;44;58] [40;41;44;58;45;62] [[113]]) = true.
Proof. vm_compute. repeat split. Qed.

Definition example_desc : desc :=
  mkDesc [65;49]
    [([102], 2%Z); ([97], 0%Z); ([103;45], (-1)%Z); ([104], 2147483647%Z)]
    [[113;48]; [113;49]; [95;33;126]]
    [[113;49]; [95;33;126]]
    [mkTrans [] [97] [113;48];
     mkTrans [[113;48]; [113;49]] [102] [113;49];
     mkTrans [[113;48]] [103;45] [95;33;126];
     mkTrans [[]; [113;49]; []] [102;44;58] [40;62;45];
     mkTrans [[40;58]] [45] [113;49]].
Lemma example_wf : wf_desc example_desc = true /\ roundtrips example_desc = true.
Proof. vm_compute. split; reflexivity. Qed.

Definition example_uniform : desc :=
  mkDesc [] [([102], 2%Z); ([97], 0%Z)] [[113]; [114;39]] [[114;39]]
    [mkTrans [] [97] [113]; mkTrans [[113]; [114;39]] [102] [114;39]; mkTrans [[113]] [103;62;45] [113]].
Lemma example_uniform_wf : wf_desc_uniform example_uniform = true.
Proof. vm_compute. reflexivity. Qed.
