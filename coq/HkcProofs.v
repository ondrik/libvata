(* Proofs about the congruence algorithm (HkcDefs.v): whatever the fuel and the search order, an answer is the truth. *)
From Coq Require Import List NArith Bool.
Import ListNotations.
From V Require Import TrimDefs TrimProofs Lang NfaDefs NfaProofs HkcDefs.

Section Hkc.
  Variable A : nfa.

  Definition lset (X : sset) (w : list N) : Prop := exists p q, In p X /\ In q (nfinals A) /\ wpath A w p q.

  Lemma lset_nil X : lset X [] <-> finb A X = true.
  Proof.
    unfold lset, finb. rewrite existsb_final. simpl. split.
    - intros (p & q & Hp & Hq & <-). eauto.
    - intros (p & Hp & Hq). exists p, p. auto.
  Qed.
  Lemma post_in X a m : In m (post A X a) <-> exists p, In p X /\ In (p, a, m) (edges A).
  Proof.
    unfold post. rewrite in_flat_map. split.
    - intros [p [Hp H]]. apply in_map_iff in H as [e [<- He]]. apply filter_In in He as [He E].
      apply andb_true_iff in E as [E1 E2]. apply N.eqb_eq in E1. apply N.eqb_eq in E2. exists p. split; auto.
      rewrite (edge_eta e) in He. rewrite E1, E2 in He. exact He.
    - intros [p [Hp He]]. exists p. split; auto. apply in_map_iff. exists (p, a, m). split; auto.
      apply filter_In. split; auto. unfold esrc, esym; simpl. rewrite !N.eqb_refl. auto.
  Qed.
  Lemma lset_cons X a w : lset X (a :: w) <-> lset (post A X a) w.
  Proof.
    unfold lset. split.
    - intros [p [q [Hp [Hq [m [He H]]]]]]. exists m, q. split; [apply post_in; exists p; auto | auto].
    - intros [m [q [Hm [Hq H]]]]. apply post_in in Hm as [p [Hp He]]. exists p, q. split; auto. split; auto. exists m; auto.
  Qed.
  Lemma lset_incl X Y w : incl X Y -> lset X w -> lset Y w.
  Proof. intros I [p [q [Hp R]]]. exists p, q. split; auto. Qed.
  Lemma lset_app X Y w : lset (X ++ Y) w <-> lset X w \/ lset Y w.
  Proof.
    split.
    - intros [p [q [Hp R]]]. apply in_app_or in Hp as [Hp|Hp]; [left|right]; exists p, q; auto.
    - intros [H|H]; eapply lset_incl; try exact H; [apply incl_appl | apply incl_appr]; apply incl_refl.
  Qed.
  Lemma post_incl X Y a : incl X Y -> incl (post A X a) (post A Y a).
  Proof. intros I m H. apply post_in in H as [p [Hp He]]. apply post_in. exists p; auto. Qed.
  Lemma post_app X Y a : post A (X ++ Y) a = post A X a ++ post A Y a.
  Proof. unfold post. apply flat_map_app. Qed.
  Lemma post_outside X a : ~ In a (alphabet A) -> post A X a = [].
  Proof.
    intros H. destruct (post A X a) as [|m l] eqn:E; auto. exfalso. apply H.
    assert (Hm : In m (post A X a)) by (rewrite E; left; auto). apply post_in in Hm as [p [_ He]].
    unfold alphabet. apply nodup_In. apply in_map_iff. exists (p, a, m). split; auto.
  Qed.
  Lemma finb_incl X Y : incl X Y -> finb A X = true -> finb A Y = true.
  Proof. unfold finb. rewrite !existsb_final. intros I (p & Hp & H). exists p; auto. Qed.
  Lemma finb_app X Y : finb A (X ++ Y) = finb A X || finb A Y.
  Proof. unfold finb. apply existsb_app. Qed.

  Inductive cc (R : sset -> sset -> Prop) : sset -> sset -> Prop :=
  | cc_base X Y : R X Y -> cc R X Y
  | cc_eq X Y : incl X Y -> incl Y X -> cc R X Y
  | cc_sym X Y : cc R X Y -> cc R Y X
  | cc_trans X Y Z : cc R X Y -> cc R Y Z -> cc R X Z
  | cc_union X1 Y1 X2 Y2 : cc R X1 Y1 -> cc R X2 Y2 -> cc R (X1 ++ X2) (Y1 ++ Y2).
  Definition InR (R : prel) (X Y : sset) : Prop := In (X, Y) R.

  Lemma cc_refl R X : cc R X X. Proof. apply cc_eq; apply incl_refl. Qed.
  Lemma cc_subst (R S : sset -> sset -> Prop) : (forall X Y, R X Y -> cc S X Y) -> forall X Y, cc R X Y -> cc S X Y.
  Proof.
    intros H X Y D. induction D.
    - auto.
    - apply cc_eq; auto.
    - apply cc_sym; auto.
    - eapply cc_trans; eauto.
    - apply cc_union; auto.
  Qed.
  Lemma seteq_spec X Y : seteq X Y = true <-> incl X Y /\ incl Y X.
  Proof. unfold seteq. rewrite andb_true_iff, !subN_spec. reflexivity. Qed.

  (* rewriting stays inside the congruence closure of the rules *)
  Lemma cc_rw R X Y acc : cc R X Y -> cc R acc (if subN X acc then acc ++ Y else acc).
  Proof.
    intros H. destruct (subN X acc) eqn:E; [apply subN_spec in E | apply cc_refl].
    apply cc_trans with (acc ++ X).
    - apply cc_eq; [apply incl_appl, incl_refl | apply incl_app; auto; apply incl_refl].
    - apply cc_union; [apply cc_refl | exact H].
  Qed.
  Lemma rw_rule_cc R acc r : In r R -> cc (InR R) acc (rw_rule acc r).
  Proof.
    destruct r as [U V]. intros Hr. apply (cc_base (InR R)) in Hr.
    eapply cc_trans; [apply cc_rw, Hr | apply cc_rw, cc_sym, Hr].
  Qed.
  Lemma rw_pass_cc R : forall R' X, incl R' R -> cc (InR R) X (fold_left rw_rule R' X).
  Proof.
    induction R' as [|r R' IH]; intros X I; simpl; [apply cc_refl|].
    eapply cc_trans; [apply (rw_rule_cc R X r); apply I; left; auto|]. apply IH. intros x Hx. apply I; right; auto.
  Qed.
  Lemma rw_norm_cc R n : forall X, cc (InR R) X (rw_norm n R X).
  Proof.
    induction n as [|n IH]; intros X; simpl; [apply cc_refl|].
    eapply cc_trans; [apply (rw_pass_cc R R X (incl_refl _))|]. apply IH.
  Qed.
  Lemma in_congr_sound R X Y : in_congr R X Y = true -> cc (InR R) X Y.
  Proof.
    unfold in_congr. intros H. apply seteq_spec in H as [H1 H2].
    eapply cc_trans; [apply rw_norm_cc|]. eapply cc_trans; [apply cc_eq; eauto|]. apply cc_sym, rw_norm_cc.
  Qed.

  Definition progress (R T : prel) : Prop :=
    forall X Y, In (X, Y) R -> finb A X = finb A Y /\ forall a, In a (alphabet A) -> cc (InR (R ++ T)) (post A X a) (post A Y a).

  Lemma cc_finb R : (forall X Y, In (X, Y) R -> finb A X = finb A Y) -> forall X Y, cc (InR R) X Y -> finb A X = finb A Y.
  Proof.
    intros H X Y D. induction D.
    - apply H; auto.
    - apply eq_true_iff_eq. split; apply finb_incl; auto.
    - auto.
    - congruence.
    - rewrite !finb_app. congruence.
  Qed.
  Lemma cc_post R : progress R [] -> forall a X Y, cc (InR R) X Y -> cc (InR R) (post A X a) (post A Y a).
  Proof.
    intros P a X Y D. induction D.
    - destruct (in_dec N.eq_dec a (alphabet A)) as [Ha|Ha].
      + destruct (P X Y H) as [_ Hp]. specialize (Hp a Ha). rewrite app_nil_r in Hp. exact Hp.
      + rewrite !post_outside; auto. apply cc_refl.
    - apply cc_eq; apply post_incl; auto.
    - apply cc_sym; auto.
    - eapply cc_trans; eauto.
    - rewrite !post_app. apply cc_union; auto.
  Qed.
  Theorem bisim_upto R : progress R [] -> forall w X Y, cc (InR R) X Y -> (lset X w <-> lset Y w).
  Proof.
    intros P. induction w as [|a w IH]; intros X Y D.
    - rewrite !lset_nil. rewrite (cc_finb R (fun X0 Y0 H => proj1 (P X0 Y0 H)) X Y D). tauto.
    - rewrite !lset_cons. apply IH. apply cc_post; auto.
  Qed.

  Variables X0 Y0 : sset.
  Definition HkcInv (R L : prel) : Prop :=
    (forall X Y, In (X, Y) R -> finb A X = finb A Y /\ forall a, In a (alphabet A) -> cc (InR L) (post A X a) (post A Y a))
    /\ cc (InR L) X0 Y0.
  Definition Resid (T : prel) : Prop :=
    forall X Y, In (X, Y) T -> exists w, (forall u, lset X u <-> lset X0 (w ++ u)) /\ (forall u, lset Y u <-> lset Y0 (w ++ u)).

  Lemma hkcinv_mono R L L' : (forall U V, In (U, V) L -> cc (InR L') U V) -> HkcInv R L -> HkcInv R L'.
  Proof.
    intros H [P C]. split; [|exact (cc_subst _ _ H _ _ C)].
    intros X Y Hin. destruct (P X Y Hin) as [Hf Hp]. split; [exact Hf|]. intros a Ha. exact (cc_subst _ _ H _ _ (Hp a Ha)).
  Qed.

  Lemma hkc_correct bfs : forall fuel R T b, hkc A bfs fuel R T = Some b -> HkcInv R (R ++ T) -> Resid T ->
    (b = true <-> forall w, lset X0 w <-> lset Y0 w).
  Proof.
    induction fuel as [|f IH]; intros R T b H I HR; [discriminate|]. simpl in H.
    destruct T as [|[X Y] t].
    - injection H as <-. split; auto. intros _ w. destruct I as [P C]. rewrite app_nil_r in C. exact (bisim_upto R P w X0 Y0 C).
    - destruct (HR X Y (or_introl eq_refl)) as [w [HX HY]].
      assert (HRt : Resid t) by (intros U V Hin; apply HR; right; auto).
      destruct (in_congr (R ++ t) X Y) eqn:EC.
      + apply in_congr_sound in EC. apply (IH R t b H); auto. revert I. apply hkcinv_mono. intros U V Hin.
        apply in_app_or in Hin as [Hin|[[= <- <-]|Hin]]; auto; apply cc_base, in_or_app; auto.
      + destruct (Bool.eqb (finb A X) (finb A Y)) eqn:EF; simpl in H.
        * apply eqb_prop in EF.
          set (succ := fun a => (post A X a, post A Y a)) in *.
          set (T' := if bfs then t ++ map succ (alphabet A) else map succ (alphabet A) ++ t) in *.
          assert (HT' : forall p, In p T' <-> In p t \/ In p (map succ (alphabet A)))
            by (intros p; unfold T'; destruct bfs; rewrite in_app_iff; [reflexivity | apply or_comm]).
          apply (IH ((X, Y) :: R) T' b H).
          -- apply (hkcinv_mono R _ (((X, Y) :: R) ++ T')) in I as [P C].
             ++ split; [|exact C]. intros U V [[= <- <-]|Hin]; [|exact (P U V Hin)]. split; [exact EF|]. intros a Ha.
                apply cc_base, in_cons, in_or_app. right. apply HT'. right. apply (in_map succ _ _ Ha).
             ++ intros U V Hin. apply cc_base. apply in_app_or in Hin as [Hin|[[= <- <-]|Hin]].
                ** right. apply in_or_app. left. exact Hin.
                ** left. reflexivity.
                ** right. apply in_or_app. right. apply HT'. left. exact Hin.
          -- intros U V Hin. apply HT' in Hin as [Hin|Hin]; auto. apply in_map_iff in Hin as [a [[= <- <-] Ha]].
             exists (w ++ [a]). split; intros u; rewrite <- app_assoc, <- lset_cons; [apply HX | apply HY].
        * (* the macro-states disagree on finality: the word leading to them separates the initial pair *)
          injection H as <-. split; [discriminate|]. intros Hall. apply eqb_false_iff in EF. destruct EF.
          apply eq_true_iff_eq. rewrite <- !lset_nil, HX, HY. apply Hall.
  Qed.
End Hkc.

Theorem hkc_equiv_partial_correct A bfs fuel X Y b : hkc_equiv A bfs fuel X Y = Some b -> (b = true <-> forall w, lset A X w <-> lset A Y w).
Proof.
  unfold hkc_equiv. intros H. apply (hkc_correct A X Y bfs fuel [] [(X, Y)] b H).
  - split; [intros U V [] | apply cc_base; left; auto].
  - intros U V [E|[]]. inversion E; subst. exists []. split; intros u; simpl; tauto.
Qed.

Lemma waccepts_lset A w : waccepts A w <-> lset A (nstarts A) w.
Proof. unfold waccepts, lset. tauto. Qed.

Theorem hkc_incl_partial_correct A B bfs fuel b : disjoint (nstates A) (nstates B) ->
  hkc_incl A B bfs fuel = Some b -> (b = true <-> wlincl A B).
Proof.
  intros D H. apply (hkc_equiv_partial_correct (napp A B)) in H. rewrite H, (congr_operands_ok A B D).
  split; intros K w; specialize (K w).
  - rewrite waccepts_lset, <- (napp_lang_r A B D). exact K.
  - rewrite waccepts_lset, <- (napp_lang_r A B D) in K. exact K.
Qed.

Corollary hkc_incl_refines A B bfs fuel b : disjoint (nstates A) (nstates B) -> hkc_incl A B bfs fuel = Some b -> b = wincl_dec A B.
Proof. intros D H. exact (wverdict_refines A B b (hkc_incl_partial_correct A B bfs fuel b D H)). Qed.

Example hkc_examples :
  let A := {| nstarts := [0%N]; nfinals := [1%N]; edges := [(0, 0, 1); (1, 0, 1); (1, 2, 0)]%N |} in
  let B := {| nstarts := [10%N]; nfinals := [10%N]; edges := [(10, 0, 10); (10, 1, 10)]%N |} in
  let C := {| nstarts := [20%N]; nfinals := [20%N; 21%N]; edges := [(20, 0, 21); (21, 0, 21); (21, 2, 20)]%N |} in
  hkc_incl A B false 50 = Some false /\ hkc_incl A B true 50 = Some false /\ hkc_incl A C false 50 = Some true /\ hkc_incl A C true 50 = Some true.
Proof. vm_compute. repeat split; reflexivity. Qed.

Theorem hkc_model_refines bfs fuel A B b : hkc_model bfs fuel A B = Some b -> b = wincl_dec A B.
Proof.
  unfold hkc_model. intros H. destruct (d01_valid (nstates A) (nstates B)) as [I0 [I1 D]].
  apply hkc_incl_partial_correct in H; [|apply nimage_disjoint, D]. apply wverdict_refines. rewrite H. apply nimage_lincl; assumption.
Qed.
