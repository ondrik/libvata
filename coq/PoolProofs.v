(* C08 — the pool of handles: a step changes only its target, Union / Intersection / the copying operations put the expected
   value there, and what the gate on an observed pool establishes (pool_agree, defined here). *)
From Coq Require Import List NArith Bool.
Import ListNotations.
From V Require Import Sem TrimProofs Lang ProductDefs ProductProofs PoolDefs.

Lemma plookup_filter_ne p k h : h <> k -> plookup (filter (fun e => negb (N.eqb (fst e) k)) p) h = plookup p h.
Proof.
  intros Hne. induction p as [|[h' a] p IH]; simpl; auto.
  destruct (N.eqb_spec h' k) as [E|NE]; simpl.
  - subst. destruct (N.eqb_spec k h); [congruence | auto].
  - destruct (N.eqb h' h); auto.
Qed.
Lemma plookup_pset_same p k a : plookup (pset p k a) k = Some a.
Proof. unfold pset; simpl. rewrite N.eqb_refl. reflexivity. Qed.
Lemma plookup_pset_other p k a h : h <> k -> plookup (pset p k a) h = plookup p h.
Proof. intros H. unfold pset; simpl. destruct (N.eqb_spec k h); [congruence|]. apply plookup_filter_ne; auto. Qed.

Theorem pool_step_frame p o h : h <> target o -> plookup (pool_step p o) h = plookup p h.
Proof.
  intros H. destruct o; simpl in *;
    repeat match goal with |- context [match plookup p ?x with _ => _ end] => destruct (plookup p x) end;
    auto; try (apply plookup_pset_other; auto). apply plookup_filter_ne; auto.
Qed.

Theorem pool_union_lang p k i j a b : plookup p i = Some a -> plookup p j = Some b ->
  exists c, plookup (pool_step p (OUnion k i j)) k = Some c /\ forall t, accepts c t <-> accepts a t \/ accepts b t.
Proof. intros Ha Hb. simpl. rewrite Ha, Hb. exists (tagged a b). split; [apply plookup_pset_same | apply tagged_lang]. Qed.
Theorem pool_isect_lang p k i j a b : plookup p i = Some a -> plookup p j = Some b ->
  exists c, plookup (pool_step p (OIsect k i j)) k = Some c /\ forall t, accepts c t <-> accepts a t /\ accepts b t.
Proof. intros Ha Hb. simpl. rewrite Ha, Hb. exists (product a b). split; [apply plookup_pset_same | apply product_lang]. Qed.
Theorem pool_keep_lang p k i a : plookup p i = Some a -> plookup (pool_step p (OKeep k i)) k = Some a.
Proof. intros Ha. simpl. rewrite Ha. apply plookup_pset_same. Qed.
Theorem pool_copy_value p k j a : plookup p j = Some a -> plookup (pool_step p (OCopy k j)) k = Some a.
Proof. intros Ha. simpl. rewrite Ha. apply plookup_pset_same. Qed.

Definition pool_agree (model observed : pool) :=
  (forall h o, plookup observed h = Some o -> exists a, plookup model h = Some a /\ leq o a) /\
  (forall h a, plookup model h = Some a -> exists o, plookup observed h = Some o).

Lemma plookup_in p : forall h a, plookup p h = Some a -> In (h, a) p.
Proof. induction p as [|[h' b] p IH]; simpl; intros h a H; [discriminate|]. destruct (N.eqb_spec h' h); [inversion H; subst; auto | right; auto]. Qed.

Theorem pool_gate_sound model observed : pool_gate model observed = true -> pool_agree model observed.
Proof.
  unfold pool_gate, pool_agree. rewrite andb_true_iff, !forallb_forall. intros [H1 H2]. split.
  - intros h o Ho. specialize (H1 (h, o) (plookup_in _ _ _ Ho)). simpl in H1. destruct (plookup model h) as [a|]; [|discriminate].
    exists a. split; auto. apply equiv_dec_spec; auto.
  - intros h a Ha. specialize (H2 (h, a) (plookup_in _ _ _ Ha)). simpl in H2. destruct (plookup observed h) as [o|]; [|discriminate]. exists o; auto.
Qed.

Theorem tagged_congr a a' b b' : leq a a' -> leq b b' -> leq (tagged a b) (tagged a' b').
Proof. intros Ha Hb t. rewrite !tagged_lang. rewrite (Ha t), (Hb t). tauto. Qed.
Theorem product_congr a a' b b' : leq a a' -> leq b b' -> leq (product a b) (product a' b').
Proof. intros Ha Hb t. rewrite !product_lang. rewrite (Ha t), (Hb t). tauto. Qed.
Theorem add_final_sup q a t : accepts a t -> accepts (add_final q a) t.
Proof. intros [p [Hp R]]. exists p. split; [right; auto | revert R; apply reach_mono; apply incl_refl]. Qed.
