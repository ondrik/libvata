(* C20 — proofs about the protocol models of ProtoDefs.v: with the deleter's invalidation every memo entry is about the current
   contents of two live objects, so lookups stay sound when addresses are recycled; the allocator pool never hands out a live
   object while clients reclaim only live ones.  Both are refuted without their premise. *)
From Coq Require Import List NArith Bool Lia.
Import ListNotations.
From V Require Import ProtoDefs.

Section MemoProofs.
Variable V : Type.
Variable veqb : V -> V -> bool.
Variable f : V -> V -> bool.
Notation mstate := (mstate V).
Notation val_of := (val_of V).
Notation is_live := (is_live V).
Notation mstep := (mstep V veqb f).

Definition MInv (s : mstate) : Prop :=
  forall a b r, In ((a, b), r) (memo V s) -> exists x y, val_of s a = Some x /\ val_of s b = Some y /\ r = f x y.

Lemma val_of_live s a x : val_of s a = Some x -> is_live s a = true.
Proof.
  unfold ProtoDefs.val_of, ProtoDefs.is_live. destruct (find _ _) as [e|] eqn:E; [|discriminate]. intros _.
  apply find_some in E as [H1 H2]. apply existsb_exists. exists e; auto.
Qed.

Lemma find_filter_ne (l : list (N * V)) a c : c <> a ->
  find (fun e => N.eqb (fst e) c) (filter (fun e => negb (N.eqb (fst e) a)) l) = find (fun e => N.eqb (fst e) c) l.
Proof.
  intros Hne. induction l as [|[h v] l IH]; simpl; auto.
  destruct (N.eqb_spec h a) as [E|NE]; simpl.
  - subst. destruct (N.eqb_spec a c); [congruence | auto].
  - destruct (N.eqb h c); auto.
Qed.

Lemma val_of_alloc s a v m c x : is_live s a = false -> val_of s c = Some x ->
  val_of {| live := (a, v) :: live V s; memo := m |} c = Some x.
Proof.
  intros L Hx. unfold ProtoDefs.val_of. simpl. destruct (N.eqb_spec a c) as [->|_]; [|exact Hx].
  apply val_of_live in Hx. congruence.
Qed.
Lemma val_of_release s a m c : c <> a ->
  val_of {| live := filter (fun e => negb (N.eqb (fst e) a)) (live V s); memo := m |} c = val_of s c.
Proof. intros Hne. unfold ProtoDefs.val_of. simpl. rewrite (find_filter_ne _ a c Hne). reflexivity. Qed.

Lemma memo_find_in {m a b r} : memo_find m a b = Some r -> In ((a, b), r) m.
Proof.
  unfold memo_find. destruct (find _ m) as [[[a' b'] r']|] eqn:E; [|discriminate]. intros H; inversion H; subst.
  apply find_some in E as [H1 H2]. simpl in H2. apply andb_true_iff in H2 as [E1 E2]. apply N.eqb_eq in E1, E2. subst; auto.
Qed.

Theorem mstep_inv s o : MInv s -> MInv (fst (mstep true s o)).
Proof.
  intros Hs. destruct o as [v a|a|a b]; simpl.
  - destruct (addr_of V veqb s v); simpl; auto. destruct (is_live s a) eqn:L; simpl; auto.
    intros c d r Hin. destruct (Hs c d r Hin) as (x & y & Hx & Hy & E). exists x, y. auto using val_of_alloc.
  - intros c d r Hin. apply filter_In in Hin as [Hin Hne]. simpl in Hne.
    apply andb_true_iff in Hne as [N1 N2]. apply negb_true_iff, N.eqb_neq in N1, N2.
    destruct (Hs c d r Hin) as (x & y & Hx & Hy & E). exists x, y. rewrite !val_of_release by assumption. auto.
  - destruct (val_of s a) as [x|] eqn:Ex; simpl; auto. destruct (val_of s b) as [y|] eqn:Ey; simpl; auto.
    destruct (memo_find (memo V s) a b) as [r|]; simpl; auto.
    intros c d r [[= <- <- <-]|Hin]; [exists x, y; auto | apply Hs, Hin].
Qed.

Lemma minit_inv : MInv (minit V).
Proof. intros a b r []. Qed.

Fixpoint sound_outputs (s : mstate) (ops : list (mop V)) : Prop :=
  match ops with
  | [] => True
  | o :: rest =>
      (match o, snd (mstep true s o) with
       | MLookup _ a b, Some r => exists x y, val_of s a = Some x /\ val_of s b = Some y /\ r = f x y
       | _, _ => True
       end) /\ sound_outputs (fst (mstep true s o)) rest
  end.

Theorem memo_sound_under_reuse_from s ops : MInv s -> sound_outputs s ops.
Proof.
  revert s. induction ops as [|o rest IH]; intros s Hs; cbn [sound_outputs]; [exact I|].
  split; [|apply IH, mstep_inv, Hs]. destruct o as [v a|a|a b]; try exact I. simpl.
  destruct (val_of s a) as [x|] eqn:Ex; [|exact I]. destruct (val_of s b) as [y|] eqn:Ey; [|exact I].
  destruct (memo_find (memo V s) a b) as [r|] eqn:Em; simpl; [|eauto].
  destruct (Hs a b r (memo_find_in Em)) as (x' & y' & Hx & Hy & E). rewrite Ex in Hx. rewrite Ey in Hy.
  injection Hx as <-. injection Hy as <-. eauto.
Qed.

Theorem memo_sound_under_reuse ops : sound_outputs (minit V) ops.
Proof. apply memo_sound_under_reuse_from, minit_inv. Qed.
End MemoProofs.

Definition stale_history : list (mop N) :=
  [MAlloc N 0 0; MAlloc N 5 1; MLookup N 0 1; MRelease N 0; MAlloc N 9 0; MLookup N 0 1]%N.
Theorem memo_without_invalidation_refuted :
  snd (mrun N N.eqb N.leb false (minit N) stale_history) = [None; None; Some true; None; None; Some true] /\
  snd (mrun N N.eqb N.leb true (minit N) stale_history) = [None; None; Some true; None; None; Some false] /\
  N.leb 9 5 = false.
Proof. vm_compute. repeat split; reflexivity. Qed.

Definition PInv (s : pstate) : Prop :=
  NoDup (pfree s) /\ NoDup (plive s) /\ (forall p, In p (pfree s) -> ~ In p (plive s)) /\
  (forall p, In p (pfree s) \/ In p (plive s) -> (p < pnext s)%N).

Lemma pinit_inv : PInv pinit.
Proof. repeat split; simpl; try constructor; intros; tauto. Qed.

Theorem pstep_inv s o : PInv s -> pop_ok s o = true -> PInv (fst (pstep s o)).
Proof.
  intros [F [L [D B]]] Hok. destruct o as [|p]; simpl.
  - destruct (pfree s) as [|q r] eqn:E; simpl.
    + repeat split; simpl; auto; try constructor; auto.
      * intros H. apply (N.lt_irrefl (pnext s)). apply B. right; auto.
      * intros p [[]|[<-|H]]; [lia | specialize (B p (or_intror H)); lia].
    + inversion F; subst. repeat split; simpl; auto.
      * constructor; auto. apply D. left; auto.
      * intros p Hp [<-|H]; [contradiction | apply (D p); auto; right; auto].
      * intros p [H|[<-|H]]; apply B; auto; left; [right|left]; auto.
  - simpl in Hok. apply existsb_exists in Hok as [q [Hq E]]. apply N.eqb_eq in E. subst q.
    repeat split; simpl.
    + constructor; auto. intros H. apply (D p H Hq).
    + apply NoDup_filter; auto.
    + intros q [<-|H] Hin; apply filter_In in Hin as [Hin Hne].
      * rewrite N.eqb_refl in Hne. discriminate.
      * apply (D q H Hin).
    + intros q [[<-|H]|H]; [apply B; right; auto | apply B; left; auto | apply filter_In in H as [H _]; apply B; right; auto].
Qed.

Theorem pool_no_alias s p : PInv s -> snd (pstep s PAlloc) = Some p -> ~ In p (plive s).
Proof.
  intros [F [L [D B]]]. simpl. destruct (pfree s) as [|q r] eqn:E; simpl; intros H; inversion H; subst.
  - intros Hin. apply (N.lt_irrefl (pnext s)). apply B. right; auto.
  - apply D. left; auto.
Qed.

Fixpoint pool_ok_run (s : pstate) (ops : list pop) : Prop :=
  match ops with
  | [] => True
  | o :: rest => pop_ok s o = true /\ pool_ok_run (fst (pstep s o)) rest
  end.
Fixpoint no_alias_run (s : pstate) (ops : list pop) : Prop :=
  match ops with
  | [] => True
  | o :: rest => (match snd (pstep s o) with Some p => ~ In p (plive s) | None => True end) /\ no_alias_run (fst (pstep s o)) rest
  end.
Theorem pool_no_alias_run s ops : PInv s -> pool_ok_run s ops -> no_alias_run s ops.
Proof.
  revert s. induction ops as [|o rest IH]; intros s I H; simpl; auto. destruct H as [Hok H]. split; [|apply IH; auto; apply pstep_inv; auto].
  destruct o as [|p]; [|simpl; auto]. destruct (snd (pstep s PAlloc)) as [p|] eqn:E; auto. apply pool_no_alias; auto.
Qed.

Theorem pool_double_reclaim_refuted :
  snd (prun pinit [PAlloc; PReclaim 0; PReclaim 0; PAlloc; PAlloc]%N) = [Some 0; None; None; Some 0; Some 0]%N.
Proof. vm_compute. reflexivity. Qed.
