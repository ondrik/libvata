(* C01 / C07 — the verdict function incl_model decides language inclusion whatever the selection, the gate on a reported verdict
   and on prepared operands, and the leaf branch of the downward checker (as fixed: exact; as it was: refuted). *)
From Coq Require Import List NArith Bool.
Import ListNotations.
From V Require Import ListAux Sem Incl TrimProofs InclDefs.

Lemma lincl_leq A A' B B' : leq A' A -> leq B' B -> (lincl A' B' <-> lincl A B).
Proof. intros HA HB. unfold lincl. split; intros H t Ht; apply HB; apply H; apply HA; auto. Qed.

Theorem incl_model_exact v A B : incl_model v A B = true <-> lincl A B.
Proof. unfold incl_model. rewrite incl_dec_spec. apply lincl_leq; apply useless_lang. Qed.

Theorem incl_model_agree v w A B : incl_model v A B = incl_model w A B.
Proof. reflexivity. Qed.

Theorem gate_verdict_spec A B b : gate_verdict A B b = true <-> (b = true <-> lincl A B).
Proof. apply eqb_true_spec, incl_dec_spec. Qed.

Theorem model_passes_gate v A B : gate_verdict A B (incl_model v A B) = true.
Proof. apply gate_verdict_spec. rewrite incl_model_exact. tauto. Qed.

Theorem prepared_lang_spec A B A' B' : prepared_lang A B A' B' = true -> (lincl A' B' <-> lincl A B).
Proof. unfold prepared_lang. rewrite andb_true_iff, !equiv_dec_spec. intros [HA HB]. apply lincl_leq; auto. Qed.

Lemma is_nil_spec {X} (l : list X) : is_nil l = true <-> l = [].
Proof. destruct l; simpl; split; auto; discriminate. Qed.

Lemma owns_leaf_spec B a p : owns_leaf B a p = true <-> reach B (Node a []) p.
Proof.
  unfold owns_leaf. rewrite reach_inv, existsb_exists. split; intros [r [Hr H]]; exists r; split; auto.
  - rewrite !andb_true_iff, !N.eqb_eq, is_nil_spec in H. destruct H as [[H1 H2] ->]. auto.
  - destruct H as [<- [F <-]]. inversion F. rewrite !N.eqb_refl. reflexivity.
Qed.
Theorem leaf_match_spec B a S : leaf_match B a S = true <-> exists p, In p S /\ reach B (Node a []) p.
Proof. unfold leaf_match. rewrite existsb_exists. split; intros [p [Hp H]]; exists p; split; auto; apply owns_leaf_spec, H. Qed.

(* the branch as it was before the fix accepted a leaf of the smaller automaton whenever some state of the
   macro-state owned any rule at all *)
Theorem leaf_match_old_refuted : exists B a S, leaf_match_old B a S = true /\ ~ exists p, In p S /\ reach B (Node a []) p.
Proof.
  exists {| rules := [ {| sym := 1; ch := []; par := 0 |} ]; finals := [0%N] |}, 0%N, [0%N]. split; [vm_compute; reflexivity|].
  intros H. apply leaf_match_spec in H. discriminate H.
Qed.

Example incl_needs_macro :
  let A := {| rules := [ {| sym := 0; ch := []; par := 0 |}; {| sym := 2; ch := [0%N]; par := 1 |} ]; finals := [1%N] |} in
  let B := {| rules := [ {| sym := 0; ch := []; par := 0 |}; {| sym := 0; ch := []; par := 1 |};
                         {| sym := 2; ch := [1%N]; par := 2 |} ]; finals := [2%N] |} in
  incl_model 0 A B = true /\ incl_model 0 B A = true.
Proof. vm_compute. split; reflexivity. Qed.
Example incl_missing_leaf :
  incl_model 0 {| rules := [ {| sym := 0; ch := []; par := 0 |} ]; finals := [0%N] |}
               {| rules := [ {| sym := 1; ch := []; par := 0 |} ]; finals := [0%N] |} = false.
Proof. vm_compute. reflexivity. Qed.
