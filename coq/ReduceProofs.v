(* C05 — proofs about Reduce (ReduceDefs.v): a downward simulation transfers runs, the quotient by representatives inside
   it keeps the language (reduce_lang), sizes never grow, every state of the result is an image; the gate decides reduce_prop. *)
From Coq Require Import List NArith Bool Arith.
Import ListNotations.
From V Require Import ListAux Sem Prod TrimProofs Lang BinopDefs BinopProofs ReduceDefs.

Lemma relb_spec D q r : relb D q r = true <-> In (q, r) D.
Proof. exact (has_pair_spec D q r). Qed.

Lemma all2_spec D : forall qs rs, all2 D qs rs = true <-> Forall2 (fun q r => In (q, r) D) qs rs.
Proof.
  induction qs as [|q qs IH]; intros [|r rs]; simpl; try (split; [discriminate | intros H; inversion H]).
  - split; auto.
  - rewrite andb_true_iff, relb_spec, IH. split; [intros []; auto | intros H; inversion H; auto].
Qed.

Definition is_down_sim (A : ta) (D : list pr) :=
  forall q r, In (q, r) D -> forall rq, In rq (rules A) -> par rq = q ->
    exists rr, In rr (rules A) /\ par rr = r /\ sym rr = sym rq /\ Forall2 (fun a b => In (a, b) D) (ch rq) (ch rr).

Lemma is_down_simb_spec A D : is_down_simb A D = true <-> is_down_sim A D.
Proof.
  unfold is_down_simb, is_down_sim. rewrite forallb_forall. split.
  - intros H q r Hqr rq Hrq Hp. specialize (H (q, r) Hqr). unfold down_keep in H. rewrite forallb_forall in H.
    specialize (H rq Hrq). simpl in H. rewrite Hp, N.eqb_refl in H. simpl in H.
    apply existsb_exists in H as [rr [Hrr E]]. apply andb_true_iff in E as [E E3]. apply andb_true_iff in E as [E1 E2].
    apply N.eqb_eq in E1, E2. apply all2_spec in E3. exists rr; auto.
  - intros H [q r] Hqr. unfold down_keep. apply forallb_forall. intros rq Hrq. simpl.
    destruct (N.eqb_spec (par rq) q) as [E|NE]; simpl; auto.
    destruct (H q r Hqr rq Hrq E) as [rr [Hrr [E1 [E2 E3]]]]. apply existsb_exists. exists rr. split; auto.
    rewrite E1, E2, !N.eqb_refl. simpl. apply all2_spec; auto.
Qed.

Lemma sim_reach A D : is_down_sim A D -> forall t q, reach A t q -> forall r, In (q, r) D -> reach A t r.
Proof.
  intros HD. apply (reach_ind' A (fun t q => forall r, In (q, r) D -> reach A t r)).
  intros f ts rq Hrq Hs _ IH r Hqr. destruct (HD _ _ Hqr rq Hrq eq_refl) as (rr & Hrr & E1 & E2 & E3).
  apply (reach_intro A rr); auto; [congruence|].
  eapply Forall2_impl; [|exact (Forall2_compose _ _ _ _ _ IH E3)]. intros t c (q & H & Hq). exact (H c Hq).
Qed.

Definition valid_rep (A : ta) (D : list pr) (rep : N -> N) :=
  forall q, In q (states A) -> In (q, rep q) D /\ In (rep q, q) D.
Lemma valid_repb_spec A D rep : valid_repb A D rep = true <-> valid_rep A D rep.
Proof. unfold valid_repb, valid_rep. rewrite forallb_forall. split; intros H q Hq; specialize (H q Hq).
  - apply andb_true_iff in H as [H1 H2]. split; apply relb_spec; auto.
  - apply andb_true_iff. split; apply relb_spec; tauto. Qed.

Lemma quot_reach A D rep : is_down_sim A D -> valid_rep A D rep ->
  forall t s, reach (image rep A) t s -> reach A t s.
Proof.
  intros HD HV. apply (reach_ind' (image rep A) (fun t s => reach A t s)).
  intros f ts r' Hr' Hs _ IH. simpl in Hr'. apply in_map_iff in Hr' as [r [<- Hr]]. simpl in *.
  apply (sim_reach A D HD _ (par r)); [|apply HV, rule_states, Hr].
  rewrite <- Hs. constructor; auto. apply Forall2_map_r_inv in IH. eapply Forall2_impl_In; [|exact IH].
  intros t c _ Hc R. apply (sim_reach A D HD t (rep c) R). apply HV, (rule_states A r Hr), Hc.
Qed.

Theorem quot_lang A D rep : is_down_sim A D -> valid_rep A D rep -> leq (image rep A) A.
Proof.
  intros HD HV t. split; [|apply image_lang_sup].
  intros [s [Hs R]]. simpl in Hs. apply in_map_iff in Hs as [q [<- Hq]].
  exists q. split; auto. eapply sim_reach; eauto. eapply quot_reach; eauto. apply HV. apply finals_states; auto.
Qed.

Theorem reduce_lang A D rep : is_down_simb A D = true -> valid_repb A D rep = true -> leq (reduce_with rep A) A.
Proof.
  intros HD HV t. unfold reduce_with. rewrite (unreach_lang (image rep A) t).
  apply quot_lang with (D := D); [apply is_down_simb_spec | apply valid_repb_spec]; auto.
Qed.

Theorem reduce_states_le rep A : nstates (reduce_with rep A) <= nstates A.
Proof.
  unfold nstates, ustates, reduce_with. etransitivity; [|apply (nodup_map_le N.eq_dec N.eq_dec rep (states A))].
  apply nodup_incl_le. intros x Hx. apply image_states, unreach_states_sub, Hx.
Qed.

Theorem reduce_rules_le rep A : nrules (reduce_with rep A) <= nrules A.
Proof.
  unfold nrules, reduce_with. etransitivity; [|apply (nodup_map_le rule_eq_dec rule_eq_dec (map_rule rep) (rules A))].
  apply nodup_incl_le. apply (unreach_rules_sub (image rep A)).
Qed.

Theorem reduce_onto rep A s : In s (states (reduce_with rep A)) -> exists q, In q (states A) /\ s = rep q.
Proof.
  intros Hs. apply in_map_eq, image_states, unreach_states_sub, Hs.
Qed.

Definition reduce_prop (A R : ta) :=
  leq R A /\ nstates R <= nstates A /\ nrules R <= nrules A /\
  forall s, In s (states R) -> exists q, In q (states A) /\ forall t, reach R t s <-> reach A t q.

Theorem reduce_gate_spec A R : reduce_gate A R = true <-> reduce_prop A R.
Proof.
  unfold reduce_gate, reduce_prop. rewrite !andb_true_iff, equiv_dec_spec, !Nat.leb_le. unfold onto_gate. rewrite forallb_forall.
  split.
  - intros [[[H1 H2] H3] H4]. split; [exact H1|]. split; [exact H2|]. split; [exact H3|]. intros s Hs. specialize (H4 s (proj2 (ustates_in R s) Hs)).
    apply existsb_exists in H4 as [q [Hq H]]. exists q. split; [apply ustates_in; auto | apply same_state_lang_spec; auto].
  - intros [H1 [H2 [H3 H4]]]. split; [split; [split|]|]; auto. intros s Hs. apply ustates_in in Hs. destruct (H4 s Hs) as [q [Hq H]].
    apply existsb_exists. exists q. split; [apply ustates_in; auto | apply same_state_lang_spec; auto].
Qed.

Example reduce_example :
  let A := {| rules := [ {| sym := 0; ch := []; par := 0 |}; {| sym := 0; ch := []; par := 1 |};
                         {| sym := 2; ch := [0%N]; par := 2 |}; {| sym := 2; ch := [1%N]; par := 2 |} ]; finals := [2%N] |} in
  let D := down_sim_rel A in
  let rep := fun q => if N.eqb q 1 then 0%N else q in
  is_down_simb A D = true /\ valid_repb A D rep = true /\ nstates (reduce_with rep A) = 2 /\ reduce_gate A (reduce_with rep A) = true.
Proof. vm_compute. repeat split; reflexivity. Qed.
