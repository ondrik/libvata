(* C16 — proofs for the state-level model of the engine's refinement loop (LtsWorkDefs.v): whatever the queue discipline and
   the fuel, a run that ends returns exactly the greatest simulation inside the initial relation.  That some fuel suffices
   is not proved. *)
From Coq Require Import List NArith Bool.
Import ListNotations.
From V Require Import LtsSimDefs LtsSimProofs LtsWorkDefs.

Lemma has_succ_false L R a q' r : has_succ L R a q' r = false <-> forall r'', In (r, a, r'') L -> ~ In (q', r'') R.
Proof.
  unfold has_succ. rewrite <- not_true_iff_false, succ_in. split.
  - intros H r'' He Hin. apply H. eauto.
  - intros H [r'' [He Hin]]. apply (H r'' He Hin).
Qed.

Lemma enabled_spec L a r : enabled L a r = true <-> exists r'', In (r, a, r'') L.
Proof.
  unfold enabled. rewrite existsb_exists. split.
  - intros [[[s b] d] [He H]]. unfold esrc, elab in H. simpl in H. rewrite andb_true_iff, !N.eqb_eq in H. destruct H as [-> ->]. eauto.
  - intros [r'' He]. exists (r, a, r''). split; auto. unfold esrc, elab. simpl. rewrite !N.eqb_refl. reflexivity.
Qed.
Lemma prune_pair_spec L q r : prune_pair L (q, r) = true <-> forall a q', In (q, a, q') L -> exists r'', In (r, a, r'') L.
Proof.
  unfold prune_pair. simpl. rewrite edges_from.
  split; intros H a q' He; apply (enabled_spec L a r), (H a q' He).
Qed.

Lemma victims_In L a q' r q r0 : In (q, r0) (victims L a q' r) <-> r0 = r /\ In (q, a, q') L.
Proof.
  unfold victims. rewrite in_map_iff. split.
  - intros [[[s b] d] [E H]]. apply filter_In in H as [He H]. unfold esrc, elab, edst in *. simpl in *.
    rewrite andb_true_iff, !N.eqb_eq in H. destruct H as [-> ->]. inversion E; subst. auto.
  - intros [-> He]. exists (q, a, q'). split; auto. apply filter_In. split; auto. unfold elab, edst. simpl. rewrite !N.eqb_refl. reflexivity.
Qed.

(* erasing (q, d) concerns the keys (label, q, predecessor) of the transitions into d; those among them that pass a test, for
   one erased pair and for a list of them.  [new_removes] has this form, and so have the counters the engine decrements
   (LtsCountProofs.decs) *)
Definition keys_of (P : N -> N -> N -> bool) (q d : N) (es : lts) : list trip :=
  flat_map (fun e => if N.eqb (edst e) d && P (elab e) q (esrc e) then [(elab e, q, esrc e)] else []) es.
Definition pre_keys (P : N -> N -> N -> bool) (L : lts) (gone : list (N * N)) : list trip :=
  flat_map (fun x => keys_of P (fst x) (snd x) L) gone.

Lemma pre_keys_In P L gone b q r0 :
  In (b, q, r0) (pre_keys P L gone) <-> exists r, In (q, r) gone /\ In (r0, b, r) L /\ P b q r0 = true.
Proof.
  unfold pre_keys. rewrite in_flat_map. split.
  - intros [[x y] [Hx H]]. apply in_flat_map in H as [[[s l] d] [He H]]. unfold esrc, elab, edst in H. simpl in H.
    destruct (N.eqb_spec d y) as [->|]; simpl in H; [|destruct H].
    destruct (P l x s) eqn:E; [|destruct H]. destruct H as [H|[]]. injection H as <- <- <-. eauto.
  - intros [r [Hg [He H]]]. exists (q, r). split; auto. apply in_flat_map. exists (r0, b, r). split; auto.
    unfold esrc, elab, edst. simpl. rewrite N.eqb_refl, H. simpl. auto.
Qed.

Lemma new_removes_In L R' gone b q r0 :
  In (b, q, r0) (new_removes L R' gone) <-> exists r, In (q, r) gone /\ In (r0, b, r) L /\ has_succ L R' b q r0 = false.
Proof. setoid_rewrite <- negb_true_iff. exact (pre_keys_In (fun b q r0 => negb (has_succ L R' b q r0)) L gone b q r0). Qed.

Lemma init_removes_In L R a q' r :
  In (a, q', r) (init_removes L R) <-> (exists q, In (q, a, q') L) /\ (exists r'', In (r, a, r'') L) /\ has_succ L R a q' r = false.
Proof.
  unfold init_removes. rewrite in_flat_map. split.
  - intros [[[s1 l1] d1] [H1 H]]. apply in_flat_map in H as [[[s2 l2] d2] [H2 H]]. unfold esrc, elab, edst in H. simpl in H.
    destruct (N.eqb_spec l2 l1) as [->|]; simpl in H; [|destruct H].
    destruct (has_succ L R l1 d1 s2) eqn:E; simpl in H; [destruct H|]. destruct H as [H|[]]. injection H as <- <- <-. repeat split; eauto.
  - intros [[q Hq] [[r'' Hr] H]]. exists (q, a, q'). split; auto. apply in_flat_map. exists (r, a, r''). split; auto.
    unfold esrc, elab, edst. simpl. rewrite N.eqb_refl, H. simpl. auto.
Qed.

Lemma queue_In {X} (lifo : bool) (nw old : list X) t : In t (if lifo then nw ++ old else old ++ nw) <-> In t old \/ In t nw.
Proof. destruct lifo; rewrite in_app_iff; tauto. Qed.

Lemma kept_In R V x : In x (filter (fun x => negb (memP x V)) R) <-> In x R /\ ~ In x V.
Proof. rewrite filter_In, negb_true_iff, memP_false. reflexivity. Qed.
Lemma gone_In R V x : In x (filter (fun x => memP x V) R) <-> In x R /\ In x V.
Proof. rewrite filter_In, memP_In. reflexivity. Qed.
Lemma kept_not_gone R V x :
  In x (filter (fun x => negb (memP x V)) R) <-> In x R /\ ~ In x (filter (fun x => memP x V) R).
Proof. rewrite kept_In, gone_In. tauto. Qed.

Section Run.
Variable L : lts.
Variable R0 : list (N * N).
Let G := lts_sim_from L R0.

(* the relation stays between the greatest simulation and the initial relation; a state in a remove set has no transition
   into a state still related (queued entries are true); a pair whose step condition fails is announced by a queued entry *)
Definition Inv (R : list (N * N)) (Rem : list trip) : Prop :=
  incl R R0 /\ incl G R /\
  (forall a q' r, In (a, q', r) Rem -> forall r'', In (r, a, r'') L -> ~ In (q', r'') R) /\
  (forall q r, In (q, r) R -> forall a q', In (q, a, q') L ->
     (exists r'', In (r, a, r'') L /\ In (q', r'') R) \/ In (a, q', r) Rem).

Lemma G_sim : simulation L (rel_of G).
Proof. apply (lts_sim_from_greatest L R0). Qed.

(* one step keeps the invariant whenever the new queue lies between the old tail and the old tail with the new entries, and
   holds those new entries whose label enters their state: the last clause of Inv only ever asks for such entries *)
Lemma step_inv a q' r Rem' R Rem'' :
  Inv R ((a, q', r) :: Rem') ->
  let V := victims L a q' r in
  let gone := filter (fun x => memP x V) R in
  let R' := filter (fun x => negb (memP x V)) R in
  (forall t, In t Rem'' -> In t Rem' \/ In t (new_removes L R' gone)) ->
  (forall t, In t Rem' -> In t Rem'') ->
  (forall b q r0, In (b, q, r0) (new_removes L R' gone) -> (exists x, In (x, b, q) L) -> In (b, q, r0) Rem'') ->
  Inv R' Rem''.
Proof.
  intros [I1 [I2 [I3 I4]]] V gone R' H1 H2 H3. split; [|split; [|split]].
  - intros x Hx. apply kept_In in Hx. apply I1, Hx.
  - intros [x y] Hx. apply kept_In. split; [apply I2, Hx|]. intros Hv. apply victims_In in Hv as [-> He].
    destruct (G_sim x r Hx a q' He) as [r'' [He' Hg]]. apply (I3 a q' r (or_introl eq_refl) r'' He'), I2, Hg.
  - intros b x y Ht r'' He Hin. apply H1 in Ht as [Ht|Ht].
    + apply kept_In in Hin. apply (I3 b x y (or_intror Ht) r'' He), Hin.
    + apply new_removes_In in Ht as [_ [_ [_ Hf]]]. rewrite has_succ_false in Hf. apply (Hf r'' He Hin).
  - intros x y Hxy b x' He. apply kept_In in Hxy as [Hxy Hnv].
    destruct (has_succ L R' b x' y) eqn:E; [left; apply succ_in, E | right].
    destruct (I4 x y Hxy b x' He) as [[y'' [He' Hin]]|[Ht|Ht]].
    + (* the successor that answered so far has just been erased *)
      apply H3; [|exists x; auto]. apply new_removes_In. exists y''. split; auto.
      apply gone_In. split; auto. destruct (memP (x', y'') V) eqn:EV; [apply memP_In, EV|].
      rewrite has_succ_false in E. destruct (E y'' He'). apply kept_In. split; auto. apply memP_false, EV.
    + injection Ht as <- <- <-. destruct Hnv. apply victims_In. auto.
    + apply H2, Ht.
Qed.

Lemma inv_final R : Inv R [] -> forall q r, In (q, r) R <-> In (q, r) G.
Proof.
  intros [I1 [I2 [_ I4]]] q r. split; [|apply I2].
  destruct (lts_sim_from_greatest L R0) as [_ Hg]. apply (Hg (rel_of R)). split; [intros x y Hxy; apply I1, Hxy|].
  intros x y Hxy a x' He. destruct (I4 x y Hxy a x' He) as [H|[]]; auto.
Qed.

Theorem hhk_partial_correct lifo fuel R Rem R' :
  Inv R Rem -> hhk L lifo fuel R Rem = Some R' -> forall q r, In (q, r) R' <-> In (q, r) G.
Proof.
  revert R Rem. induction fuel as [|f IH]; intros R Rem HI H; simpl in H; [discriminate|].
  destruct Rem as [|[[a q'] r0] Rem'].
  - injection H as <-. apply inv_final, HI.
  - eapply IH; [|exact H]. eapply step_inv; [exact HI| | |].
    + intros t. apply queue_In.
    + intros t Ht. apply queue_In. auto.
    + intros b q r1 Hn _. apply queue_In. auto.
Qed.

Lemma init_inv : Inv (prune_enabled L R0) (init_removes L (prune_enabled L R0)).
Proof.
  split; [|split; [|split]].
  - intros x Hx. apply filter_In in Hx. tauto.
  - intros [q r] Hx. apply filter_In. split.
    + destruct (lts_sim_from_greatest L R0) as [[Hs _] _]. apply (Hs q r Hx).
    + apply prune_pair_spec. intros a q' He. destruct (G_sim q r Hx a q' He) as [r'' [He' _]]. eauto.
  - intros a q' r Ht r'' He Hin. apply init_removes_In in Ht as [_ [_ Hf]]. rewrite has_succ_false in Hf. apply (Hf r'' He Hin).
  - intros q r Hx a q' He. destruct (has_succ L (prune_enabled L R0) a q' r) eqn:E.
    + left. apply succ_in, E.
    + right. apply init_removes_In. split; [eauto|]. split; auto.
      apply filter_In in Hx as [_ Hp]. rewrite prune_pair_spec in Hp. eapply Hp; eauto.
Qed.
End Run.

Theorem hhk_sim_partial_correct L lifo fuel n part brel R' :
  hhk_sim L lifo fuel n part brel = Some R' -> forall q r, In (q, r) R' <-> In (q, r) (lts_sim L n part brel).
Proof. unfold hhk_sim, lts_sim. intros H. eapply hhk_partial_correct; [apply init_inv | exact H]. Qed.

Theorem hhk_sim_passes_gate L lifo fuel n part brel m R' :
  hhk_sim L lifo fuel n part brel = Some R' -> gate_lts L n part brel m (output m R') = true.
Proof.
  intros H. apply same_passes_gate, (hhk_sim_partial_correct L lifo fuel n part brel R' H).
Qed.

Example hhk_example :
  hhk_sim ex_lts true 20 3 [[0; 2]; [1]]%N [(0, 0); (1, 1); (0, 1)]%N = Some [(0, 0); (0, 1); (1, 1); (2, 2)]%N /\
  hhk_sim ex_lts false 20 3 [[0; 2]; [1]]%N [(0, 0); (1, 1); (0, 1)]%N = Some [(0, 0); (0, 1); (1, 1); (2, 2)]%N.
Proof. vm_compute. split; reflexivity. Qed.

(* init()'s pruning by enabled labels is necessary: without it a candidate that lacks a label altogether is never looked at *)
Definition np_lts : lts := [(0, 0, 0)]%N.
Theorem hhk_noprune_refuted :
  exists R', hhk_sim_noprune np_lts true 10 2 [[0; 1]]%N [(0, 0)]%N = Some R' /\ In (0, 1)%N R' /\
             ~ In (0, 1)%N (lts_sim np_lts 2 [[0; 1]]%N [(0, 0)]%N).
Proof.
  eexists. split; [vm_compute; reflexivity|]. split; [vm_compute; tauto|].
  apply memP_false. vm_compute. reflexivity.
Qed.
