(* C10 — NFA Union, UnionDisjointStates, Intersection, Reverse, RemoveUnreachableStates,
   RemoveUselessStates, GetCandidateTree.  Nothing but statements closed by [exact];
   the proofs are in NfaProofs.v (word semantics and deciders: Lang.v). *)
From Coq Require Import List NArith Bool.
From V Require Import Sem Prod Incl TrimDefs Lang NfaDefs NfaProofs NfaCandProofs.

(* Union through the reported translation maps accepts exactly the union, for every valid pair of maps *)
Theorem C10_nunion_lang : forall hA hB A B, valid_nunion hA hB A B ->
  forall w, waccepts (nunion_with hA hB A B) w <-> waccepts A w \/ waccepts B w.
Proof. exact nunion_lang. Qed.
Print Assumptions C10_nunion_lang.
(* the validity predicate is decided by the boolean the check evaluates, and is satisfiable *)
Theorem C10_valid_nunionb : forall hA hB A B, valid_nunionb hA hB A B = true <-> valid_nunion hA hB A B.
Proof. exact valid_nunionb_spec. Qed.
Example C10_valid_nunion_sat : forall A B, valid_nunion d0 d1 A B.
Proof. exact (fun A B => d01_valid _ _). Qed.
(* UnionDisjointStates accepts exactly the union when the state sets are disjoint *)
Theorem C10_nunion_disjoint_lang : forall A B, disjoint (nstates A) (nstates B) ->
  forall w, waccepts (nunion_disjoint A B) w <-> waccepts A w \/ waccepts B w.
Proof. exact napp_lang. Qed.
Print Assumptions C10_nunion_disjoint_lang.
(* Intersection: product from the start pairs (a pair is initial iff both components are),
   trimmed, under any pairing that is injective on the operands' states *)
Theorem C10_nisect_lang : forall pr A B, inj2_on pr (nstates A) (nstates B) ->
  forall w, waccepts (nisect pr A B) w <-> waccepts A w /\ waccepts B w.
Proof. exact nisect_lang. Qed.
Print Assumptions C10_nisect_lang.
Theorem C10_inj2_onb : forall pr la lb, inj2_onb pr la lb = true -> inj2_on pr la lb.
Proof. exact inj2_onb_sound. Qed.
Example C10_inj2_on_sat : forall A B, inj2_on (pr0 (nbound B)) (nstates A) (nstates B).
Proof. exact pr0_inj. Qed.
(* Reverse accepts exactly the mirror images *)
Theorem C10_nreverse_lang : forall A w, waccepts (nreverse A) w <-> waccepts A (rev w).
Proof. exact nreverse_lang. Qed.
Print Assumptions C10_nreverse_lang.
(* RemoveUnreachableStates and RemoveUselessStates (= unreach, reverse, unreach, reverse) keep the language *)
Theorem C10_nunreach_lang : forall A w, waccepts (nunreach A) w <-> waccepts A w.
Proof. exact nunreach_lang. Qed.
Print Assumptions C10_nunreach_lang.
Theorem C10_nuseless_lang : forall A w, waccepts (nuseless A) w <-> waccepts A w.
Proof. exact nuseless_lang. Qed.
Print Assumptions C10_nuseless_lang.
(* ... and every state RemoveUselessStates leaves is reachable from a start state and reaches a final state *)
Theorem C10_nuseless_useful : forall A x, In x (nstates (nuseless A)) -> nuseful A x.
Proof. exact nuseless_useful. Qed.
(* GetCandidateTree: a result accepted by [ncandidate_ok] has a sub-language and is non-empty if A is *)
Theorem C10_ncandidate_sub : forall A R, ncandidate_ok A R = true -> wlincl R A.
Proof. exact ncandidate_sub. Qed.
Theorem C10_ncandidate_nonempty : forall A R, ncandidate_ok A R = true -> (exists w, waccepts A w) -> exists w, waccepts R w.
Proof. exact ncandidate_nonempty. Qed.
Print Assumptions C10_ncandidate_nonempty.

(* the breadth-first search as repaired (a final start state ends the search; otherwise the first final
   successor), followed by RemoveUselessStates, returns such a result for every NFA; its structural
   fuel is never exhausted *)
Theorem C10_ncandidate_model_ok : forall A, ncandidate_ok A (ncandidate A) = true.
Proof. exact ncandidate_correct. Qed.
Print Assumptions C10_ncandidate_model_ok.

(* the gates evaluated on libvata's output decide exactly the property clauses *)
Theorem C10_gate_nunion : forall A B R, gate_nunion A B R = true <-> forall w, waccepts R w <-> waccepts A w \/ waccepts B w.
Proof. exact gate_nunion_spec. Qed.
Print Assumptions C10_gate_nunion.
Theorem C10_gate_nisect : forall A B R, gate_nisect A B R = true <-> forall w, waccepts R w <-> waccepts A w /\ waccepts B w.
Proof. exact gate_nisect_spec. Qed.
Print Assumptions C10_gate_nisect.
Theorem C10_gate_nreverse : forall A R, gate_nreverse A R = true <-> forall w, waccepts R w <-> waccepts A (rev w).
Proof. exact gate_nreverse_spec. Qed.
Theorem C10_gate_nsame : forall A R, gate_nsame A R = true <-> forall w, waccepts R w <-> waccepts A w.
Proof. exact gate_nsame_spec. Qed.
Theorem C10_gate_ncandidate : forall A R, gate_ncandidate A R = true <->
  wlincl R A /\ ((exists w, waccepts A w) -> exists w, waccepts R w).
Proof. exact gate_ncandidate_spec. Qed.
Print Assumptions C10_gate_ncandidate.
(* structural comparisons used by the check are sound for the language *)
Theorem C10_nfa_same_lang : forall A B, nfa_same A B = true -> forall w, waccepts A w <-> waccepts B w.
Proof. exact nfa_same_lang. Qed.

(* an implementation agreeing with the models passes the gates *)
Theorem C10_model_nunion_passes : forall hA hB A B, valid_nunion hA hB A B -> gate_nunion A B (nunion_with hA hB A B) = true.
Proof. exact model_nunion_passes. Qed.
Theorem C10_model_nisect_passes : forall pr A B, inj2_on pr (nstates A) (nstates B) -> gate_nisect A B (nisect pr A B) = true.
Proof. exact model_nisect_passes. Qed.
Theorem C10_model_nreverse_passes : forall A, gate_nreverse A (nreverse A) = true.
Proof. exact model_nreverse_passes. Qed.
Theorem C10_model_nunreach_passes : forall A, gate_nsame A (nunreach A) = true.
Proof. exact model_nunreach_passes. Qed.
Theorem C10_model_nuseless_passes : forall A, gate_nsame A (nuseless A) = true.
Proof. exact model_nuseless_passes. Qed.
Theorem C10_model_ncandidate_passes : forall A, gate_ncandidate A (ncandidate A) = true.
Proof. exact ncandidate_gate. Qed.

(* the code as it was before the fix: commits (D7, D13): faithful models violate the property *)
Theorem C10_isect_refuted :
  (exists A B, gate_nisect A B (nisect_old (pr0 (nbound B)) A B) = false /\ wincl_dec (nisect_old (pr0 (nbound B)) A B) B = false) /\
  (exists A B, gate_nisect A B (nisect_old (pr0 (nbound B)) A B) = false /\ wis_empty (nisect_old (pr0 (nbound B)) A B) = true).
Proof. exact nisect_old_refuted. Qed.
Theorem C10_candidate_refuted : exists A, gate_ncandidate A (ncandidate_old A) = false /\ wis_empty A = false.
Proof. exact ncandidate_old_refuted. Qed.
Print Assumptions C10_candidate_refuted.
Print Assumptions C10_valid_nunionb.
Print Assumptions C10_inj2_onb.
Print Assumptions C10_nuseless_useful.
Print Assumptions C10_ncandidate_sub.
Print Assumptions C10_gate_nreverse.
Print Assumptions C10_gate_nsame.
Print Assumptions C10_nfa_same_lang.
Print Assumptions C10_model_nunion_passes.
Print Assumptions C10_model_nisect_passes.
Print Assumptions C10_model_nreverse_passes.
Print Assumptions C10_model_nunreach_passes.
Print Assumptions C10_model_nuseless_passes.
Print Assumptions C10_model_ncandidate_passes.
Print Assumptions C10_isect_refuted.
