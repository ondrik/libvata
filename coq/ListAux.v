(* Facts about lists that the standard library of Coq 8.16 lacks, shared by all files. *)
From Coq Require Import List Bool Lia Permutation.
Import ListNotations.

Section Forall2.
Context {X Y : Type}.
Implicit Types (P Q : X -> Y -> Prop).

Lemma Forall2_length P l m : Forall2 P l m -> length l = length m.
Proof. induction 1; simpl; auto. Qed.

Lemma Forall2_impl P Q l m : (forall x y, P x y -> Q x y) -> Forall2 P l m -> Forall2 Q l m.
Proof. induction 2; auto. Qed.

Lemma Forall2_flip P l m : Forall2 (fun y x => P x y) m l -> Forall2 P l m.
Proof. induction 1; auto. Qed.

Lemma Forall2_In_l P l m x : Forall2 P l m -> In x l -> exists y, In y m /\ P x y.
Proof. induction 1 as [|a b l m H F IH]; [intros []|]. intros [<-|Hx]; [exists b|destruct (IH Hx) as (y & ? & ?); exists y]; simpl; auto. Qed.

Lemma Forall2_In_r P l m y : Forall2 P l m -> In y m -> exists x, In x l /\ P x y.
Proof. induction 1 as [|a b l m H F IH]; [intros []|]. intros [<-|Hy]; [exists a|destruct (IH Hy) as (x & ? & ?); exists x]; simpl; auto. Qed.

Lemma Forall2_right (R : Y -> Prop) l m : Forall2 (fun (_ : X) y => R y) l m -> forall y, In y m -> R y.
Proof. intros F y Hy. destruct (Forall2_In_r _ _ _ _ F Hy) as (_ & _ & H). exact H. Qed.

Lemma Forall2_const_r (R : Y -> Prop) : forall l m, length m = length l -> Forall R m -> Forall2 (fun (_ : X) y => R y) l m.
Proof. induction l as [|x l IH]; intros [|y m] E F; try discriminate; constructor; inversion F; subst; auto. Qed.

Lemma Forall2_choose P m : (forall y, In y m -> exists x, P x y) -> exists l, Forall2 P l m.
Proof.
  induction m as [|y m IH]; intros H; [exists []; constructor|].
  destruct (H y (or_introl eq_refl)) as [x Hx]. destruct IH as [l Hl]; [intros; apply H; right; auto|].
  exists (x :: l). constructor; auto.
Qed.
End Forall2.

Lemma Forall2_map_r {X Y Z} (P : X -> Z -> Prop) (g : Y -> Z) l m :
  Forall2 (fun x y => P x (g y)) l m -> Forall2 P l (map g m).
Proof. induction 1; simpl; constructor; auto. Qed.

Lemma Forall2_map_r_inv {X Y Z} (P : X -> Z -> Prop) (g : Y -> Z) l m :
  Forall2 P l (map g m) -> Forall2 (fun x y => P x (g y)) l m.
Proof. revert l. induction m as [|y m IH]; intros l H; inversion H; subst; constructor; auto. Qed.

Lemma Forall2_map_l {X Y Z} (P : Z -> Y -> Prop) (g : X -> Z) l m :
  Forall2 (fun x y => P (g x) y) l m -> Forall2 P (map g l) m.
Proof. induction 1; simpl; constructor; auto. Qed.

Lemma Forall2_compose {X Y Z} (P : X -> Y -> Prop) (Q : Y -> Z -> Prop) xs ys zs :
  Forall2 P xs ys -> Forall2 Q ys zs -> Forall2 (fun x z => exists y, P x y /\ Q y z) xs zs.
Proof. intros F. revert zs. induction F; intros zs G; inversion G; subst; constructor; eauto. Qed.

Lemma Forall2_factor {X Y Z} (P : X -> Y -> Prop) (R1 : X -> Z -> Prop) (R2 : Z -> Y -> Prop) xs ys :
  Forall2 P xs ys -> (forall x y, P x y -> exists z, R1 x z /\ R2 z y) -> exists zs, Forall2 R1 xs zs /\ Forall2 R2 zs ys.
Proof.
  intros F H. induction F as [|x y xs ys Hxy _ (zs & F1 & F2)]; [exists []; auto|].
  destruct (H x y Hxy) as (z & H1 & H2). exists (z :: zs). auto.
Qed.

Lemma Forall2_nth {X Y} (P : X -> Y -> Prop) l m d e i : Forall2 P l m -> i < length l -> P (nth i l d) (nth i m e).
Proof. intros H. revert i. induction H; intros [|i] Hi; simpl in *; try lia; auto. apply IHForall2. lia. Qed.

Lemma Forall2_of_nth {X Y} (P : X -> Y -> Prop) l m d e :
  length l = length m -> (forall i, i < length m -> P (nth i l d) (nth i m e)) -> Forall2 P l m.
Proof.
  revert m. induction l as [|x l IH]; intros [|y m] HL H; simpl in *; try discriminate; constructor.
  - apply (H 0). lia.
  - apply IH; [lia|]. intros i Hi. apply (H (S i)). lia.
Qed.

Lemma Forall2_impl_In {X Y} (P Q : X -> Y -> Prop) l m :
  (forall x y, In x l -> In y m -> P x y -> Q x y) -> Forall2 P l m -> Forall2 Q l m.
Proof. intros H F. induction F; constructor; [|apply IHF; intros]; apply H; simpl; auto. Qed.

Lemma Forall_iff {X} (P Q : X -> Prop) l : Forall (fun x => P x <-> Q x) l -> (Forall P l <-> Forall Q l).
Proof. rewrite !Forall_forall. intros H. split; intros F x Hx; apply (H x Hx), F, Hx. Qed.

Lemma list_sum_ge_len {X} (g : X -> nat) l : (forall x, In x l -> 1 <= g x) -> length l <= list_sum (map g l).
Proof.
  induction l as [|x l IH]; simpl; intros H; auto.
  specialize (H x (or_introl eq_refl)) as H1. specialize (IH (fun y Hy => H y (or_intror Hy))). lia.
Qed.

Lemma eqb_true_spec (b c : bool) (P : Prop) : (c = true <-> P) -> (Bool.eqb b c = true <-> (b = true <-> P)).
Proof. intros <-. rewrite eqb_true_iff. destruct b, c; intuition congruence. Qed.

Lemma fold_left_inv {X Y} (f : X -> Y -> X) (P : X -> Prop) l :
  (forall x y, In y l -> P x -> P (f x y)) -> forall x, P x -> P (fold_left f l x).
Proof.
  induction l as [|y l IH]; simpl; intros H x Hx; [exact Hx|].
  apply IH; [intros x' y' Hy'; apply H; auto | apply H; auto].
Qed.

Lemma fold_left_rel {A A' B} (R : A -> A' -> Prop) (f : A -> B -> A) (f' : A' -> B -> A') :
  (forall a a' b, R a a' -> R (f a b) (f' a' b)) -> forall l a a', R a a' -> R (fold_left f l a) (fold_left f' l a').
Proof. intros H. induction l; simpl; auto. Qed.

Lemma fold_left_map {A X Y} (f : A -> Y -> A) (g : X -> Y) l : forall a, fold_left f (map g l) a = fold_left (fun a x => f a (g x)) l a.
Proof. induction l; simpl; auto. Qed.

Lemma fold_left_flat_map {A X Y} (f : A -> Y -> A) (g : X -> list Y) (f' : A -> X -> A) l :
  (forall x, In x l -> forall a, fold_left f (g x) a = f' a x) -> forall a, fold_left f (flat_map g l) a = fold_left f' l a.
Proof. induction l as [|x l IH]; simpl; intros H a; auto. rewrite fold_left_app, H, IH; auto. Qed.

Lemma andb_iff (b c : bool) (P Q : Prop) : (b = true <-> P) -> (c = true <-> Q) -> (b && c = true <-> P /\ Q).
Proof. intros <- <-. apply andb_true_iff. Qed.

Lemma negb_iff (b : bool) (P : Prop) : (b = true <-> P) -> (negb b = true <-> ~ P).
Proof. intros <-. rewrite negb_true_iff. symmetry. apply not_true_iff_false. Qed.

Lemma in_map_eq {X Y} (f : X -> Y) l y : In y (map f l) <-> exists x, In x l /\ y = f x.
Proof. rewrite in_map_iff. split; intros [x [H1 H2]]; exists x; auto. Qed.

Lemma in_flat_map_if {X Y} (b : X -> bool) (g : X -> list Y) l y :
  In y (flat_map (fun x => if b x then g x else []) l) <-> exists x, In x l /\ b x = true /\ In y (g x).
Proof.
  rewrite in_flat_map. split; intros (x & Hx & H); exists x; split; auto.
  - destruct (b x); [auto | destruct H].
  - destruct H as [-> H]; exact H.
Qed.

Lemma existsb_eqb {X} (eqb : X -> X -> bool) : (forall x y, eqb x y = true <-> x = y) ->
  forall x l, existsb (eqb x) l = true <-> In x l.
Proof.
  intros H x l. rewrite existsb_exists. split.
  - intros (y & Hy & E). apply H in E. subst; auto.
  - intros Hx. exists x. split; auto. apply H; auto.
Qed.

Lemma forallb_mem_incl {X} (mem : X -> list X -> bool) : (forall x l, mem x l = true <-> In x l) ->
  forall l m, forallb (fun x => mem x m) l = true <-> incl l m.
Proof. intros H l m. rewrite forallb_forall. split; intros I x Hx; apply H, I, Hx. Qed.

Section ListBeq.
Context {X : Type} (eqb : X -> X -> bool).

Fixpoint list_beq (a b : list X) : bool :=
  match a, b with [], [] => true | x :: a', y :: b' => eqb x y && list_beq a' b' | _, _ => false end.

Lemma list_beq_eq : (forall x y, eqb x y = true <-> x = y) -> forall a b, list_beq a b = true <-> a = b.
Proof.
  intros E. induction a as [|x a IH]; intros [|y b]; simpl; [tauto | split; discriminate | split; discriminate |].
  rewrite andb_true_iff, E, IH. split; [intros [-> ->] | intros [= -> ->]]; auto.
Qed.
End ListBeq.

Section NoDup.
Context {X : Type}.
Implicit Types l m : list X.

Lemma NoDup_app l m : NoDup (l ++ m) <-> NoDup l /\ NoDup m /\ (forall x, In x l -> ~ In x m).
Proof.
  induction l as [|a l IH]; simpl.
  - split; [intros H; repeat split; auto; constructor | tauto].
  - rewrite !NoDup_cons_iff, IH, in_app_iff. split.
    + intros [N (Hl & Hm & D)]. repeat split; auto. intros x [<-|Hx]; auto.
    + intros ([Na Hl] & Hm & D). repeat split; auto. intros [H|H]; auto. exact (D a (or_introl eq_refl) H).
Qed.

Lemma NoDup_snoc l x : NoDup l -> ~ In x l -> NoDup (l ++ [x]).
Proof.
  intros Hl Hx. apply NoDup_app. repeat split; auto; [constructor; auto; constructor|].
  intros y Hy [<-|[]]. auto.
Qed.

Lemma filter_length_le (p : X -> bool) l : length (filter p l) <= length l.
Proof. induction l as [|a l IH]; simpl; auto. destruct (p a); simpl; lia. Qed.

Lemma filter_same_len (p : X -> bool) l : length (filter p l) = length l -> forall x, In x l -> p x = true.
Proof.
  induction l as [|a l IH]; simpl; intros E x Hx; [tauto|].
  pose proof (filter_length_le p l). destruct (p a) eqn:Pa; simpl in E; [|lia].
  destruct Hx as [<-|Hx]; auto.
Qed.

Lemma filter_nil (p : X -> bool) l : filter p l = [] <-> forall x, In x l -> p x = false.
Proof.
  induction l as [|a l IH]; simpl; [split; auto; intros _ x []|]. destruct (p a) eqn:E.
  - split; [discriminate|]. intros H. rewrite (H a) in E; auto. discriminate.
  - rewrite IH. split; intros H x; [intros [<-|]|]; auto.
Qed.

Lemma filter_all (p : X -> bool) l : (forall x, In x l -> p x = true) -> filter p l = l.
Proof. induction l as [|a l IH]; simpl; intros H; auto. rewrite (H a), IH; auto. Qed.

Lemma nodup_map_inj {Y} (f : X -> Y) l : NoDup (map f l) -> forall x y, In x l -> In y l -> f x = f y -> x = y.
Proof.
  induction l as [|a l IH]; simpl; intros H x y Hx Hy E; [destruct Hx|]. inversion H as [|? ? Hn Hnd]; subst.
  destruct Hx as [<-|Hx], Hy as [<-|Hy]; auto; destruct Hn; [rewrite E | rewrite <- E]; apply in_map; auto.
Qed.

Variable dec : forall a b : X, {a = b} + {a <> b}.

Lemma nodup_incl_le l m : incl l m -> length (nodup dec l) <= length (nodup dec m).
Proof. intros H. apply NoDup_incl_length; [apply NoDup_nodup|]. intros x. rewrite !nodup_In. apply H. Qed.

Lemma nodup_len_seteq l m : (forall x, In x l <-> In x m) -> length (nodup dec l) = length (nodup dec m).
Proof.
  intros H. apply Permutation_length, NoDup_Permutation; try apply NoDup_nodup.
  intros x. rewrite !nodup_In. auto.
Qed.

Lemma nodup_map_len {Y} (dy : forall a b : Y, {a = b} + {a <> b}) (f : X -> Y) l :
  (forall x y, In x l -> In y l -> f x = f y -> x = y) -> length (nodup dy (map f l)) = length (nodup dec l).
Proof.
  induction l as [|a l IH]; simpl; intros Hinj; auto.
  assert (IH' : length (nodup dy (map f l)) = length (nodup dec l)) by (apply IH; intros; apply Hinj; auto).
  destruct (in_dec dec a l) as [Hin|Hn]; destruct (in_dec dy (f a) (map f l)) as [Hin'|Hn']; simpl; auto.
  - destruct Hn'. apply in_map; auto.
  - apply in_map_iff in Hin' as (b & E & Hb). rewrite (Hinj b a) in Hb; tauto.
Qed.

Lemma nodup_map_le {Y} (dy : forall a b : Y, {a = b} + {a <> b}) (f : X -> Y) l :
  length (nodup dy (map f l)) <= length (nodup dec l).
Proof.
  rewrite <- (map_length f (nodup dec l)). apply NoDup_incl_length; [apply NoDup_nodup|].
  intros y. rewrite nodup_In, !in_map_iff. intros (x & <- & Hx). exists x. rewrite nodup_In. auto.
Qed.
End NoDup.

Section Combine.
Context {X Y : Type}.
Variable P : X -> Y -> Prop.

Lemma Forall2_combine l m : Forall2 P l m -> Forall2 (fun x y => In (x, y) (combine l m)) l m.
Proof. induction 1 as [|x y l m _ _ IH]; constructor; simpl; auto. eapply Forall2_impl; [|exact IH]. auto. Qed.

Lemma Forall2_combine_In l m x y : Forall2 P l m -> In (x, y) (combine l m) -> P x y.
Proof. induction 1 as [|a b l m H _ IH]; simpl; [tauto|]. intros [[= <- <-]|Hin]; auto. Qed.
End Combine.
