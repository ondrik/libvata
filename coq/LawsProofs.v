(* C19 — verdicts and emptiness answers do not depend on the names of the states or the order of rules, the verdict function obeys
   the laws of inclusion, and the judges pass every implementation that answers with the model's verdict or not at all. *)
From Coq Require Import List Bool.
Import ListNotations.
From V Require Import Prod TrimDefs TrimProofs Lang InclDefs InclProofs BinopDefs BinopProofs ProductDefs ProductProofs ReduceDefs ReduceProofs LawsDefs.

Definition answers (b : bool) (o : outcome) := o = Timeout \/ o = of_bool b.

Lemma answers_agree b x y : answers b x -> answers b y -> agree2 x y = true.
Proof. intros [-> | ->] [-> | ->]; destruct b; reflexivity. Qed.

Theorem agree_sound b l : Forall (answers b) l -> all_agree l = true.
Proof.
  intros H. rewrite Forall_forall in H. unfold all_agree. apply forallb_forall. intros x Hx. apply forallb_forall. intros y Hy.
  apply (answers_agree b); auto.
Qed.
Theorem pairwise_sound b l m : Forall (answers b) l -> Forall (answers b) m -> length l = length m -> pairwise_agree l m = true.
Proof.
  revert m. induction l as [|x l IH]; intros [|y m] Hl Hm E; simpl in *; try discriminate; auto.
  inversion Hl; inversion Hm; subst. rewrite (answers_agree b x y), IH; auto.
Qed.
Theorem must_hold_sound o : answers true o -> must_hold o = true.
Proof. intros [-> | ->]; reflexivity. Qed.

Theorem verdict_equivariant v h k A B : inj_on h (states A) -> inj_on k (states B) ->
  incl_model v (image h A) (image k B) = incl_model v A B.
Proof.
  intros Hh Hk. apply eq_true_iff_eq. rewrite !incl_model_exact. apply lincl_leq; intros t; apply image_lang_inj; auto.
Qed.
Theorem empty_equivariant h A : inj_on h (states A) -> is_empty (image h A) = is_empty A.
Proof.
  intros Hh. apply eq_true_iff_eq. rewrite !is_empty_spec. split; intros H t Ht; apply (H t); apply (image_lang_inj h A Hh); auto.
Qed.
Theorem verdict_order_invariant v A A' B B' : ta_same A A' = true -> ta_same B B' = true -> incl_model v A B = incl_model v A' B'.
Proof.
  intros HA HB. apply eq_true_iff_eq. rewrite !incl_model_exact.
  apply (lincl_leq A' A B' B (ta_same_leq _ _ HA) (ta_same_leq _ _ HB)).
Qed.

Theorem law_refl v A : incl_model v A A = true.
Proof. apply incl_model_exact. intros t; auto. Qed.
Theorem law_union_l v hA hB A B : valid_unionb hA hB A B = true -> incl_model v A (union_with hA hB A B) = true.
Proof. intros H. apply incl_model_exact. intros t Ht. apply (union_with_lang hA hB A B H). auto. Qed.
Theorem law_union_r v hA hB A B : valid_unionb hA hB A B = true -> incl_model v B (union_with hA hB A B) = true.
Proof. intros H. apply incl_model_exact. intros t Ht. apply (union_with_lang hA hB A B H). auto. Qed.
Theorem law_isect_l v A B : incl_model v (isect_td A B) A = true.
Proof. apply incl_model_exact. intros t Ht. apply isect_td_lang in Ht. tauto. Qed.
Theorem law_isect_r v A B : incl_model v (isect_td A B) B = true.
Proof. apply incl_model_exact. intros t Ht. apply isect_td_lang in Ht. tauto. Qed.
Theorem law_trans v A B C : incl_model v A B = true -> incl_model v B C = true -> incl_model v A C = true.
Proof. rewrite !incl_model_exact. intros H1 H2 t Ht. auto. Qed.
Theorem law_equiv_trim v A : incl_model v A (remove_useless A) = true /\ incl_model v (remove_useless A) A = true.
Proof. split; apply incl_model_exact; intros t Ht; apply (useless_lang A t); auto. Qed.
Theorem law_equiv_reindex v h A : inj_on h (states A) -> incl_model v A (image h A) = true /\ incl_model v (image h A) A = true.
Proof. intros Hh. split; apply incl_model_exact; intros t Ht; apply (image_lang_inj h A Hh t); auto. Qed.
Theorem law_equiv_reduce v A D rep : is_down_simb A D = true -> valid_repb A D rep = true ->
  incl_model v A (reduce_with rep A) = true /\ incl_model v (reduce_with rep A) A = true.
Proof. intros H1 H2. split; apply incl_model_exact; intros t Ht; apply (reduce_lang A D rep H1 H2 t); auto. Qed.
