(* C19 — trimming is equivariant: the states that survive RemoveUselessStates of a renamed automaton are exactly the
   renamed survivors, hence the number of states after trimming does not depend on the numbering. *)
From Coq Require Import List NArith Bool.
Import ListNotations.
From V Require Import ListAux Sem Prod TrimDefs TrimProofs Lang BinopDefs ReduceDefs.

Lemma unreach_states A q : In q (states (remove_unreachable A)) <-> TdReach A q.
Proof.
  split; [intros H; apply unreach_td_back, unreach_post, H | intros T; apply td_in_states, unreach_td_back, T].
Qed.

Theorem useless_states A q : In q (states (remove_useless A)) <-> TdReach (productive_part A) q.
Proof. apply unreach_states. Qed.

Lemma TdReach_ext A B : incl (rules A) (rules B) -> incl (finals A) (finals B) -> forall q, TdReach A q -> TdReach B q.
Proof. intros HR HF q T. induction T as [q Hq | r c Hr _ IH Hc]; [apply td_fin; auto | apply (td_child _ r c); auto]. Qed.

Lemma productive_image h A x : inj_on h (states A) -> (In x (productive (image h A)) <-> exists q, In q (productive A) /\ x = h q).
Proof.
  intros Hinj. rewrite productive_spec. split.
  - intros [t R]. destruct (reach_image_inj h A Hinj t x R) as [q [-> Rq]]. exists q. split; auto. apply productive_spec. eauto.
  - intros [q [Hq ->]]. apply productive_spec in Hq as [t R]. exists t. apply reach_image; auto.
Qed.

Lemma rule_productive_image h A r : inj_on h (states A) -> In r (rules A) ->
  rule_productive (productive (image h A)) (map_rule h r) = rule_productive (productive A) r.
Proof.
  intros Hinj Hr. apply eq_true_iff_eq. rewrite !rule_productive_spec. simpl. split.
  - intros H c Hc. destruct (proj1 (productive_image h A (h c) Hinj) (H _ (in_map h _ _ Hc))) as [q [Hq E]].
    assert (c = q). { apply Hinj; auto; [apply (rule_states A r Hr); auto|]. apply productive_states, Hq. }
    subst; auto.
  - intros H x Hx. apply in_map_iff in Hx as [c [<- Hc]]. apply productive_image; auto. exists c. split; auto.
Qed.

Lemma pp_image_rules h A r' : inj_on h (states A) ->
  (In r' (rules (productive_part (image h A))) <-> exists r, In r (rules (productive_part A)) /\ r' = map_rule h r).
Proof.
  intros Hinj. rewrite pp_rules. simpl. split.
  - intros [Hin Hp]. apply in_map_iff in Hin as [r [<- Hr]]. exists r. split; auto. apply pp_rules. split; auto.
    rewrite <- (rule_productive_image h A r Hinj Hr). auto.
  - intros [r [Hr ->]]. apply pp_rules in Hr as [Hr Hp]. split; [apply in_map; auto|]. rewrite (rule_productive_image h A r Hinj Hr). auto.
Qed.

Lemma pp_image_finals h A x : inj_on h (states A) ->
  (In x (finals (productive_part (image h A))) <-> exists q, In q (finals (productive_part A)) /\ x = h q).
Proof.
  intros Hinj. simpl. rewrite filter_In, in_map_iff. split.
  - intros [[q [<- Hq]] Hp]. apply memN_In in Hp. apply (productive_image h A _ Hinj) in Hp as [q' [Hq' E]].
    assert (q = q'). { apply Hinj; auto; [apply finals_states; auto|]. apply productive_states, Hq'. }
    subst. exists q'. split; auto. apply filter_In. split; auto. apply memN_In; auto.
  - intros [q [Hq ->]]. apply filter_In in Hq as [Hq Hp]. apply memN_In in Hp. split; [exists q; auto|].
    apply memN_In. apply productive_image; auto. exists q; auto.
Qed.


Theorem useless_states_image h A x : inj_on h (states A) ->
  (In x (states (remove_useless (image h A))) <-> exists q, In q (states (remove_useless A)) /\ x = h q).
Proof.
  intros Hinj. rewrite useless_states. split.
  - intros T. induction T as [x Hx | r' c' Hr' T IH Hc'].
    + apply (pp_image_finals h A x Hinj) in Hx as [q [Hq ->]]. exists q. split; auto. apply useless_states. apply td_fin; auto.
    + apply (pp_image_rules h A r' Hinj) in Hr' as [r [Hr ->]]. change (par (map_rule h r)) with (h (par r)) in *. change (ch (map_rule h r)) with (map h (ch r)) in Hc'. apply in_map_iff in Hc' as [c [<- Hc]].
      destruct IH as [q [Hq E]]. apply useless_states in Hq.
      assert (par r = q).
      { apply Hinj; [apply pp_states_sub; apply (proj1 (rule_states _ r Hr)) | apply pp_states_sub; apply td_in_states; auto | exact E]. }
      subst q. exists c. split; auto. apply useless_states. apply (td_child _ r c); auto.
  - intros [q [Hq ->]]. apply useless_states in Hq. induction Hq as [q Hq | r c Hr T IH Hc].
    + apply td_fin. apply (pp_image_finals h A _ Hinj). exists q; auto.
    + apply (td_child _ (map_rule h r) (h c)); auto; [apply (pp_image_rules h A _ Hinj); exists r; auto | simpl; apply in_map; auto].
Qed.

Theorem trim_size_equivariant h A : inj_on h (states A) -> nstates (remove_useless (image h A)) = nstates (remove_useless A).
Proof.
  intros Hinj. unfold nstates, ustates.
  assert (Hs : forall q, In q (states (remove_useless A)) -> In q (states A)).
  { intros q Hq. apply pp_states_sub, td_in_states, (proj1 (useless_states A q)), Hq. }
  rewrite <- (nodup_map_len N.eq_dec N.eq_dec h (states (remove_useless A))).
  - apply nodup_len_seteq. intros x. rewrite (useless_states_image h A x Hinj), in_map_iff.
    split; intros (q & H1 & H2); exists q; auto.
  - intros x y Hx Hy. exact (Hinj x y (Hs x Hx) (Hs y Hy)).
Qed.
