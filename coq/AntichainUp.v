(* C01 / C07, algorithm-level model — upward inclusion with antichain pruning: the saturation of reachable macro pairs (q, S)
   that skips every new pair subsumed by a stored one ((q, S') with S' a subset of S), as the `contains` test of the
   antichain does. Theorem: pruning by subsumption does not change the verdict. (The code additionally removes stored
   pairs that a new pair subsumes — `refine` — which only shrinks the stored set further.) *)
From Coq Require Import List NArith Bool Arith Lia.
Import ListNotations.
From V Require Import ListAux Fix Sem Prod Incl TrimDefs TrimProofs.

Definition subsumesb (x y : mp) : bool := N.eqb (fst x) (fst y) && subN (snd x) (snd y).
Definition covered (R : list mp) (y : mp) : bool := existsb (fun x => subsumesb x y) R.
Definition ac_step (A B : ta) (R : list mp) : list mp := filter (fun y => negb (covered R y)) (mstep A B R).
Definition up_ac_reach (A B : ta) : list mp :=
  saturate2 mp mp_eq_dec (ac_step A B) (length (states A) + length (QB B)) [].
Definition pair_ok (A B : ta) (p : mp) : bool :=
  implb (memN (fst p) (finals A)) (existsb (fun q => memN q (finals B)) (snd p)).
Definition up_ac (A B : ta) : bool := forallb (pair_ok A B) (up_ac_reach A B).

Lemma incl_dec_pair_ok A B : incl_dec A B = forallb (pair_ok A B) (macro_reach A B).
Proof. reflexivity. Qed.

Lemma postB_mono B f Ms Ss : Forall2 (@incl N) Ms Ss -> incl (postB B f Ms) (postB B f Ss).
Proof.
  intros F p Hp. apply postB_in in Hp as [Hq [r [Hr [E1 [FI E2]]]]]. apply postB_in. split; auto. exists r. repeat split; auto.
  eapply Forall2_impl; [|exact (Forall2_compose _ _ _ _ _ FI F)]. intros c S [M [Hc HI]]. auto.
Qed.

(* Pruning up to a preorder: what the saturation below, the work list of AntichainUpW.v and the work list with a simulation of
   AntichainUpSim.v have in common. Macro-states are compared by a relation `bel` that is transitive and reflexive on its field;
   the step builds parents with a post function `g` that is below (above) postB when the children are replaced by macro-states
   below (above) them; having a final state is monotone. Then a set of pairs closed under the step up to subsumption covers every
   reachable macro pair (closed_covers). *)
Lemma gstep_postB A B R : gstep A (postB B) R = mstep A B R.
Proof. reflexivity. Qed.

Definition subsumes (bel : list N -> list N -> Prop) (z y : mp) : Prop := fst z = fst y /\ bel (snd z) (snd y).
Definition Cov bel (L : list mp) (y : mp) : Prop := exists z, In z L /\ subsumes bel z y.
Definition Wit (A B : ta) bel (y : mp) : Prop := exists x, Der mp (mstep A B) x /\ subsumes bel x y.

Record UpTo (B : ta) (bel : list N -> list N -> Prop) (g : N -> list (list N) -> list N) : Prop := {
  bel_rrefl : forall X Y, bel X Y -> bel Y Y;
  bel_trans : forall X Y Z, bel X Y -> bel Y Z -> bel X Z;
  g_below : forall f Ms Ss, Forall2 bel Ms Ss -> bel (g f Ms) (postB B f Ss);
  g_above : forall f Ss Ms, Forall2 bel Ss Ms -> bel (postB B f Ss) (g f Ms);
  fin_bel : forall X Y, bel X Y ->
    existsb (fun q => memN q (finals B)) X = true -> existsb (fun q => memN q (finals B)) Y = true }.
Arguments bel_rrefl {B bel g}.
Arguments bel_trans {B bel g}.
Arguments g_below {B bel g}.
Arguments g_above {B bel g}.
Arguments fin_bel {B bel g}.

Section UpTo.
Context {A B : ta} {bel : list N -> list N -> Prop} {g : N -> list (list N) -> list N} (U : UpTo B bel g).

Lemma subsumes_trans x y z : subsumes bel x y -> subsumes bel y z -> subsumes bel x z.
Proof. intros [E1 H1] [E2 H2]. split; [congruence | exact (bel_trans U _ _ _ H1 H2)]. Qed.
Lemma wit_refl y : Wit A B bel y -> subsumes bel y y.
Proof. intros [x [_ [_ H]]]. split; [reflexivity | exact (bel_rrefl U _ _ H)]. Qed.
Lemma cov_in {L y} : Wit A B bel y -> In y L -> Cov bel L y.
Proof. intros H Hy. exists y. split; [exact Hy | exact (wit_refl y H)]. Qed.
Lemma cov_trans L {L' y} : (forall z, In z L -> Cov bel L' z) -> Cov bel L y -> Cov bel L' y.
Proof. intros H [z [Hz Hs]]. destruct (H z Hz) as [z' [Hz' Hs']]. exists z'. split; auto. exact (subsumes_trans _ _ _ Hs' Hs). Qed.
Lemma pair_ok_subsumes y x : subsumes bel y x -> pair_ok A B y = true -> pair_ok A B x = true.
Proof.
  destruct y as [q Y], x as [q' X]. intros [E H]. simpl in E, H. subst q'. unfold pair_ok. simpl.
  destruct (memN q (finals A)); [exact (fin_bel U Y X H) | reflexivity].
Qed.

Lemma closed_covers P : (forall y, In y (gstep A g P) -> Cov bel P y) -> forall x, Der mp (mstep A B) x -> Cov bel P x.
Proof.
  intros HC. induction 1 as [S x _ IH Hx]. apply mstep_in in Hx as [r [Ss [Hr [F ->]]]].
  destruct (Forall2_factor _ (fun q M => In (q, M) P) bel _ _ F) as [Ms [F1 F2]].
  { intros q S0 H. destruct (IH _ H) as [[q' M] [Hz [E Hb]]]. simpl in E. subst q'. exists M. auto. }
  destruct (HC (par r, g (sym r) Ms)) as [z [Hz Hs]]; [apply gstep_in; exists r, Ms; auto|].
  exists z. split; auto. apply (subsumes_trans _ _ _ Hs). split; [reflexivity | exact (g_below U _ _ _ F2)].
Qed.

Lemma closed_ok P : (forall y, In y (gstep A g P) -> Cov bel P y) -> (forall y, In y P -> pair_ok A B y = true) -> incl_dec A B = true.
Proof.
  intros HC HK. rewrite incl_dec_pair_ok. apply forallb_forall. intros x Hx. apply macro_reach_der in Hx.
  destruct (closed_covers P HC x Hx) as [z [Hz Hs]]. exact (pair_ok_subsumes z x Hs (HK z Hz)).
Qed.
Lemma wit_fail y : Wit A B bel y -> pair_ok A B y = false -> incl_dec A B = false.
Proof.
  intros [x [D H]] Hy. apply not_true_is_false. rewrite incl_dec_pair_ok, forallb_forall. intros E.
  rewrite (pair_ok_subsumes x y H) in Hy; [discriminate|]. exact (E x (proj2 (macro_reach_der A B x) D)).
Qed.

Lemma step_wit R : (forall y, In y R -> Wit A B bel y) -> forall y, In y (gstep A g R) -> Wit A B bel y.
Proof.
  intros HR y Hy. apply gstep_in in Hy as [r [Ms [Hr [F ->]]]].
  destruct (Forall2_factor _ (fun q S => Der mp (mstep A B) (q, S)) bel _ _ F) as [Ss [F1 F2]].
  { intros q M H. destruct (HR _ H) as [[q' S] [HD [E H1]]]. simpl in E. subst q'. exists S. auto. }
  exists (par r, postB B (sym r) Ss). split; [apply mstep_der; auto|]. split; [reflexivity | exact (g_above U _ _ _ F2)].
Qed.
End UpTo.

Lemma upto_incl B : UpTo B (@incl N) (postB B).
Proof.
  split.
  - intros X Y _. apply incl_refl.
  - intros X Y Z. apply incl_tran.
  - exact (postB_mono B).
  - exact (postB_mono B).
  - intros X Y I H. apply existsb_exists in H as [p [Hp Hf]]. apply existsb_exists. exists p. auto.
Qed.

Lemma subsumesb_spec x y : subsumesb x y = true <-> subsumes (@incl N) x y.
Proof. unfold subsumesb, subsumes. rewrite andb_true_iff, N.eqb_eq, subN_spec. tauto. Qed.
Lemma covered_spec R y : covered R y = true <-> Cov (@incl N) R y.
Proof. unfold covered. rewrite existsb_exists. split; intros [x [Hx H]]; exists x; split; auto; apply subsumesb_spec, H. Qed.

Lemma ac_step_bounded A B S : incl (ac_step A B S) (universe A B).
Proof. intros x Hx. exact (mstep_bounded A B S x (incl_filter _ _ x Hx)). Qed.

Lemma up_ac_reach_eq A B : up_ac_reach A B = saturate mp mp_eq_dec (ac_step A B) (S (length (universe A B))) [].
Proof.
  unfold up_ac_reach. rewrite saturate2_pow.
  apply (saturate_more mp mp_eq_dec (ac_step A B) (universe A B) (fun S _ => ac_step_bounded A B S)). apply universe_fuel.
Qed.

Lemma der_ac_mstep A B x : Der mp (ac_step A B) x -> Der mp (mstep A B) x.
Proof. induction 1 as [S x _ IH Hx]. apply (der mp (mstep A B) S); auto. exact (incl_filter _ _ x Hx). Qed.
Lemma up_ac_sound A B x : In x (up_ac_reach A B) -> In x (macro_reach A B).
Proof.
  rewrite up_ac_reach_eq. intros H. apply saturate_sound in H; [|intros y []].
  apply macro_reach_der, der_ac_mstep, H.
Qed.

Lemma up_ac_closed A B x : In x (mstep A B (up_ac_reach A B)) -> Cov (@incl N) (up_ac_reach A B) x.
Proof.
  intros Hx. destruct (covered (up_ac_reach A B) x) eqn:E; [apply covered_spec, E|].
  exists x. split; [|split; [reflexivity | apply incl_refl]].
  assert (C : incl (ac_step A B (up_ac_reach A B)) (up_ac_reach A B)).
  { rewrite up_ac_reach_eq. apply (saturate_closed mp mp_eq_dec (ac_step A B) (universe A B) (fun S _ => ac_step_bounded A B S));
      [constructor | intros y [] | simpl; lia]. }
  apply C. apply filter_In. split; auto. rewrite E. reflexivity.
Qed.

Theorem up_antichain_refines A B : up_ac A B = incl_dec A B.
Proof.
  apply eq_true_iff_eq. unfold up_ac. rewrite forallb_forall. split.
  - apply (closed_ok (upto_incl B) (up_ac_reach A B)). intros y. rewrite gstep_postB. apply up_ac_closed.
  - rewrite incl_dec_pair_ok, forallb_forall. intros H x Hx. exact (H x (up_ac_sound A B x Hx)).
Qed.

Theorem up_antichain_exact A B : up_ac A B = true <-> lincl A B.
Proof. rewrite up_antichain_refines. apply incl_dec_spec. Qed.

Example up_ac_prunes :
  let A := {| rules := [ {| sym := 0; ch := []; par := 0 |}; {| sym := 2; ch := [0%N]; par := 0 |} ]; finals := [0%N] |} in
  let B := {| rules := [ {| sym := 0; ch := []; par := 0 |}; {| sym := 2; ch := [0%N]; par := 0 |}; {| sym := 2; ch := [0%N]; par := 1 |};
                         {| sym := 2; ch := [1%N]; par := 1 |} ]; finals := [0%N] |} in
  length (up_ac_reach A B) = 1 /\ length (macro_reach A B) = 2 /\ up_ac A B = true.
Proof. vm_compute. repeat split; reflexivity. Qed.
