(* C11, value level: frame property of the pool and its corollaries in the property's words; the flat
   tree values agree with the nested store of C12; the comparisons decide set equality. *)
From Coq Require Import List NArith Bool.
Import ListNotations.
From V Require Import ListAux Sem.
From V Require Lang.
From V Require Import StoreDefs StoreProofs ReindexDefs ReindexProofs ValueDefs.

Section Pool.
  Variable V : Type.
  Notation pool := (pool V).
  Notation vstep := (vstep V).

  Lemma pset_same (p : pool) h v : pset p h v h = v.
  Proof. unfold pset. rewrite N.eqb_refl. auto. Qed.
  Lemma pset_other (p : pool) h v x : x <> h -> pset p h v x = p x.
  Proof. unfold pset. intros H. apply N.eqb_neq in H. rewrite H. auto. Qed.

  Lemma step_frame (p : pool) (st : vstep) x : ~ In x (written st) -> vstep_run p st x = p x.
  Proof.
    intros H. assert (E : forall (q : pool) h v, In h (written st) -> pset q h v x = q x).
    { intros q h v Hh. apply pset_other. intros ->. exact (H Hh). }
    destruct st; simpl in *.
    - apply E; auto.
    - destruct (p s); auto.
    - destruct (p s); auto. rewrite !E; auto.
    - destruct (p h); auto.
    - apply E; auto.
    - destruct (p s); auto.
    - destruct (p s1), (p s2); auto.
  Qed.

  Theorem frame (l : list vstep) : forall (p : pool) x, (forall st, In st l -> ~ In x (written st)) -> vrun p l x = p x.
  Proof.
    induction l as [|st l IH]; simpl; intros p x H; auto.
    rewrite IH by (intros; apply H; auto). apply step_frame. apply H; auto.
  Qed.

  Theorem copy_isolated (p : pool) h s v l : p s = Some v -> h <> s ->
    (forall st, In st l -> ~ In h (written st)) -> vrun (vstep_run p (VCopy h s)) l h = Some v.
  Proof. intros Hs Hn Hl. rewrite frame by auto. simpl. rewrite Hs. apply pset_same. Qed.
  Theorem copy_isolated_src (p : pool) h s v l : p s = Some v -> h <> s ->
    (forall st, In st l -> ~ In s (written st)) -> vrun (vstep_run p (VCopy h s)) l s = Some v.
  Proof. intros Hs Hn Hl. rewrite frame by auto. simpl. rewrite Hs. rewrite pset_other; auto. Qed.

  Theorem move_transfers (p : pool) h s v l : p s = Some v -> h <> s ->
    (forall st, In st l -> ~ In h (written st)) -> vrun (vstep_run p (VMove h s)) l h = Some v /\ vstep_run p (VMove h s) s = None.
  Proof. intros Hs Hn Hl. rewrite frame by auto. simpl. rewrite Hs. rewrite pset_same. split; auto.
    rewrite pset_other by auto. apply pset_same. Qed.

  Theorem result_independent_of_operand_fate1 (p : pool) h f s v l : p s = Some v ->
    (forall st, In st l -> ~ In h (written st)) -> vrun (vstep_run p (VLib1 h f s)) l h = Some (f v).
  Proof. intros Hs Hl. rewrite frame by auto. simpl. rewrite Hs. apply pset_same. Qed.
  Theorem result_independent_of_operand_fate2 (p : pool) h f s1 s2 v1 v2 l : p s1 = Some v1 -> p s2 = Some v2 ->
    (forall st, In st l -> ~ In h (written st)) -> vrun (vstep_run p (VLib2 h f s1 s2)) l h = Some (f v1 v2).
  Proof. intros H1 H2 Hl. rewrite frame by auto. simpl. rewrite H1, H2. apply pset_same. Qed.
  Theorem operand_unchanged1 (p : pool) h f s : h <> s -> vstep_run p (VLib1 h f s) s = p s.
  Proof. intros H. apply step_frame. simpl. intros [X|[]]; auto. Qed.
  Theorem operand_unchanged2 (p : pool) h f s1 s2 : h <> s1 -> h <> s2 ->
    vstep_run p (VLib2 h f s1 s2) s1 = p s1 /\ vstep_run p (VLib2 h f s1 s2) s2 = p s2.
  Proof. intros H1 H2. split; apply step_frame; simpl; intros [X|[]]; auto. Qed.

  Theorem op_deterministic1 (p1 p2 : pool) l1 l2 h1 h2 f s1 s2 v :
    vrun p1 l1 s1 = Some v -> vrun p2 l2 s2 = Some v ->
    vstep_run (vrun p1 l1) (VLib1 h1 f s1) h1 = vstep_run (vrun p2 l2) (VLib1 h2 f s2) h2.
  Proof. intros H1 H2. simpl. rewrite H1, H2. rewrite !pset_same. auto. Qed.
  Theorem op_deterministic2 (p1 p2 : pool) l1 l2 h1 h2 f a1 b1 a2 b2 va vb :
    vrun p1 l1 a1 = Some va -> vrun p1 l1 b1 = Some vb -> vrun p2 l2 a2 = Some va -> vrun p2 l2 b2 = Some vb ->
    vstep_run (vrun p1 l1) (VLib2 h1 f a1 b1) h1 = vstep_run (vrun p2 l2) (VLib2 h2 f a2 b2) h2.
  Proof. intros H1 H2 H3 H4. simpl. rewrite H1, H2, H3, H4. rewrite !pset_same. auto. Qed.
End Pool.

Definition t_step (o : op) (v : ta) : ta :=
  match o with
  | Add r => t_add r v
  | SetFinal q => t_setfinal q v
  | SetFinals qs => {| rules := rules v; finals := finals v ++ qs |}
  | EraseFinals => t_erasefinals v
  | Clear => t_clear v
  end.

Theorem flat_step a o : wf a -> ta_set_eq (flat (step a o)) (t_step o (flat a)) = true.
Proof.
  intros [W F]. apply ta_set_eq_spec. destruct o; simpl; split; intros x; try reflexivity.
  - rewrite in_app_iff, iter_add by exact W. simpl. tauto.
  - rewrite In_addN, in_app_iff. simpl. split; [intros [H|H] | intros [H|[H|[]]]]; auto.
  - rewrite (In_fold_addN (fun q => q)), map_id, in_app_iff. reflexivity.
Qed.

Lemma pair_eqb_eq p q : pair_eqb p q = true <-> p = q.
Proof. unfold pair_eqb. rewrite andb_true_iff, !N.eqb_eq. destruct p, q; simpl. split; [intros [-> ->]; auto | intros E; inversion E; auto]. Qed.
Lemma edge_eqb_eq e f : edge_eqb e f = true <-> e = f.
Proof. unfold edge_eqb. rewrite andb_true_iff, pair_eqb_eq, N.eqb_eq. destruct e as [p x], f as [q y]; simpl.
  split; [intros [-> ->]; auto | intros E; inversion E; auto]. Qed.
Lemma sub_by_spec {X} (eqb : X -> X -> bool) (H : forall x y, eqb x y = true <-> x = y) l m :
  sub_by eqb l m = true <-> incl l m.
Proof. unfold sub_by. rewrite forallb_forall. split; intros A x Hx; apply (existsb_eqb eqb H), A, Hx. Qed.

Lemma sub_by_both {X} (eqb : X -> X -> bool) (H : forall x y, eqb x y = true <-> x = y) l m :
  sub_by eqb l m = true /\ sub_by eqb m l = true <-> forall x, In x l <-> In x m.
Proof.
  rewrite !(sub_by_spec eqb H). split; [intros [A B] x; split; auto | intros E; split; intros x; apply E].
Qed.

Theorem t_obs_eq_spec m o : t_obs_eq m o = true <->
  (forall r, In r (rules m) <-> In r (rules o)) /\ (forall q, In q (finals m) <-> In q (finals o)).
Proof. apply ta_set_eq_spec. Qed.

Lemma andb_iff3 (b c d : bool) (P Q : Prop) : (b = true <-> P) -> (c = true /\ d = true <-> Q) -> (b && c && d = true <-> P /\ Q).
Proof. intros <- <-. rewrite !andb_true_iff. apply and_assoc. Qed.

Theorem w_obs_eq_spec m o : w_obs_eq m o = true <->
  (forall s, In s (wstartset m) <-> In s (wstartset o)) /\ (forall x, In x (wsyms m) <-> In x (wsyms o)) /\
  (forall q, In q (wfinals m) <-> In q (wfinals o)) /\ (forall e, In e (wedges m) <-> In e (wedges o)).
Proof.
  rewrite <- !and_assoc. apply andb_iff3; [|apply sub_by_both, edge_eqb_eq].
  apply andb_iff; [|apply set_eqN_spec]. apply andb_iff3; [apply set_eqN_spec | apply sub_by_both, pair_eqb_eq].
Qed.

Theorem t_union_gate_sound mA mB A B R : t_union_gate mA mB A B R = true ->
  (forall r, In r (rules R) <-> (exists r0, In r0 (rules A) /\ r = Lang.map_rule (app_map mA 0) r0) \/
                                (exists r0, In r0 (rules B) /\ r = Lang.map_rule (app_map mB 0) r0)) /\
  (forall q, In q (finals R) <-> (exists q0, In q0 (finals A) /\ q = app_map mA 0 q0) \/
                                 (exists q0, In q0 (finals B) /\ q = app_map mB 0 q0)).
Proof.
  intros H. do 2 apply andb_prop in H as [H _]. revert H. apply ta_set_eq_members.
  - intros r. simpl. rewrite in_app_iff, !in_map_eq. reflexivity.
  - intros q. simpl. rewrite in_app_iff, !in_map_eq. reflexivity.
Qed.

Theorem t_image_gate_spec h A R : t_image_gate h A R = true <->
  (forall r, In r (rules R) <-> exists r0, In r0 (rules A) /\ r = Lang.map_rule h r0) /\
  (forall q, In q (finals R) <-> exists q0, In q0 (finals A) /\ q = h q0).
Proof. apply ta_set_eq_members; [apply image_exact_rules | apply image_exact_finals]. Qed.
