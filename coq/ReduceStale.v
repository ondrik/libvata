(* C05 — a simulation relation computed for an automaton is not valid for the same object after an in-place extension, even when
   no state is added: quotienting the extended automaton by the representatives chosen for the old one changes the language.
   (The theorem behind Reduce, ReduceProofs.reduce_lang, needs the relation to be a downward simulation OF THE AUTOMATON BEING REDUCED;
   a memo of the relation keyed by the identity of the transition table and the number of states does not guarantee that.) *)
From Coq Require Import List NArith.
Import ListNotations.
From V Require Import Sem Prod TrimProofs ReduceDefs ReduceModel.
Local Open Scope N_scope.

Definition mkr (f : N) (c : list N) (p : N) : rule := {| sym := f; ch := c; par := p |}.
(* a -> 10, a -> 20, f(10) -> 30, g(20) -> 30, final 30: states 10 and 20 are simulation equivalent *)
Definition stA : ta := {| rules := [mkr 0 [] 10; mkr 0 [] 20; mkr 2 [10] 30; mkr 5 [20] 30]; finals := [30] |}.
(* the same object after AddTransition(b -> 10): no new state, 10 and 20 are no longer equivalent *)
Definition stA' : ta := {| rules := rules stA ++ [mkr 1 [] 10]; finals := [30] |}.

Theorem reduce_stale_relation_refuted :
  (forall q, In q (states stA') <-> In q (states stA)) /\
  canon_rep stA 10 = canon_rep stA 20 /\
  ~ (forall t, accepts (reduce_with (canon_rep stA) stA') t <-> accepts stA' t).
Proof.
  split; [intro q; cbv [stA stA' states rules finals app map flat_map mkr par ch]; simpl; tauto|]. split; [vm_compute; reflexivity|].
  intros H. apply equiv_dec_spec in H. vm_compute in H. discriminate H.
Qed.

Example reduce_fresh_relation_ok : forall t, accepts (reduce_model stA') t <-> accepts stA' t.
Proof. exact (reduce_model_lang stA'). Qed.
