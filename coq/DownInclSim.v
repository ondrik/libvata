(* C01 / C07, algorithm-level model — recursive downward inclusion WITH a simulation preorder: besides the coinductive workset, a goal
   (q, S) is answered "true" at once when q is simulated by some s in S. Theorem: if the relation handed in is a downward
   simulation on the disjoint union of the two (prepared) operands, every answer is still the truth, whatever the fuel. *)
From Coq Require Import List NArith Bool.
Import ListNotations.
From V Require Import Sem Prod Incl Lang InclDefs BinopDefs BinopProofs ReduceDefs ReduceProofs ComplModel DownIncl.

Definition simulated (D : list pr) (q : N) (S : list N) : bool := existsb (fun s => relb D q s) S.

Fixpoint downs (D : list pr) (A B : ta) (fuel : nat) (q : N) (S : list N) (W : wk) : option bool :=
  match fuel with
  | 0 => None
  | Datatypes.S f =>
      if in_workset W q S || simulated D q S then Some true else
      forall_opt (fun r =>
        if negb (N.eqb (par r) q) then Some true else
        let k := length (ch r) in
        let T := tuplesB B S (sym r) k in
        match k with
        | 0 => Some (negb (is_nil T))
        | _ => forall_opt (fun c => exists_opt (fun i => downs D A B f (nth i (ch r) 0%N) (pick T c i) ((q, S) :: W)) (seq 0 k))
                          (all_choices (length T) k)
        end) (rules A)
  end.

Definition downs_incl (D : list pr) (A B : ta) (fuel : nat) : option bool :=
  forall_opt (fun q => downs D A B fuel q (finals B) []) (finals A).

(* the side condition: D is a downward simulation on the union of the operands, whose state sets are disjoint
   (this is what sanitize + UnionDisjointStates + ComputeSimulation establish) *)
Definition sim_ok (D : list pr) (A B : ta) := disjoint (states A) (states B) /\ is_down_sim (ta_app A B) D.

Lemma simulated_covers D A B q S : sim_ok D A B -> simulated D q S = true -> incl S (states B) -> Incl A B q S.
Proof.
  intros [Dj HD] Hs HS t R. unfold simulated in Hs. apply existsb_exists in Hs as [s [Hin Hr]]. apply relb_spec in Hr.
  exists s. split; auto.
  assert (RU : reach (ta_app A B) t s) by (eapply sim_reach; eauto; apply app_reach_l; auto).
  apply app_reach in RU; auto. destruct RU as [RA|RB]; auto.
  exfalso. apply (Dj s); [eapply reach_state; eauto | apply HS; auto].
Qed.

Lemma downs_eq D A B f q S W : downs D A B (Datatypes.S f) q S W =
  if in_workset W q S || simulated D q S then Some true else expand_opt (fun q' S' => downs D A B f q' S' ((q, S) :: W)) A B q S.
Proof. reflexivity. Qed.

Lemma downs_sound D A B : sim_ok D A B -> forall fuel q S W b, incl S (states B) ->
  downs D A B fuel q S W = Some b -> Correct A B W q S b.
Proof.
  intros HS. induction fuel as [|f IH]; intros q S W b HSB Hd; [discriminate|]. rewrite downs_eq in Hd.
  destruct (in_workset W q S) eqn:EW; [injection Hd as <-; exact (Under_hit A B W q S EW)|].
  destruct (simulated D q S) eqn:ES; [injection Hd as <-; exact (Incl_Under A B W q S (simulated_covers D A B q S HS ES HSB))|].
  exact (expand_opt_spec _ A B q S W b (fun q' S' b' => IH q' S' _ b') Hd).
Qed.

Theorem downs_incl_partial_correct D A B fuel b : sim_ok D A B -> downs_incl D A B fuel = Some b -> (b = true <-> lincl A B).
Proof. intros HS. apply verdict_opt. intros q b0. apply (downs_sound D A B HS). intros x. apply finals_states. Qed.

Theorem downs_incl_partial_correct_b D A B fuel b :
  disjointb (states A) (states B) = true -> is_down_simb (ta_app A B) D = true ->
  downs_incl D A B fuel = Some b -> (b = true <-> lincl A B).
Proof.
  intros H1 H2. apply downs_incl_partial_correct. split; [apply disjointb_spec; exact H1 | apply is_down_simb_spec; exact H2].
Qed.

Example downs_example :
  let A := {| rules := [ {| sym := 0; ch := []; par := 0 |}; {| sym := 2; ch := [0%N]; par := 0 |} ]; finals := [0%N] |} in
  let B := {| rules := [ {| sym := 0; ch := []; par := 10 |}; {| sym := 2; ch := [10%N]; par := 11 |}; {| sym := 2; ch := [11%N]; par := 10 |};
                         {| sym := 0; ch := []; par := 11 |} ]; finals := [10%N; 11%N] |} in
  let D := down_sim_rel (ta_app A B) in
  is_down_simb (ta_app A B) D = true /\ disjointb (states A) (states B) = true /\ downs_incl D A B 1 = Some true /\ down_incl A B 1 = None.
Proof. vm_compute. repeat split; reflexivity. Qed.
