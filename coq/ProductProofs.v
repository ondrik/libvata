(* C02 — the product automaton: a state pcode K p q stands for the pair (p, q) and accepts what both components accept;
   hence Intersection (pruned top-down) and IntersectionBU (pruned both ways) accept the intersection. *)
From Coq Require Import List NArith Arith Lia.
Import ListNotations.
From V Require Import ListAux Sem Prod TrimProofs ProductDefs.

Lemma bound_gt l x : In x l -> (x < bound l)%N.
Proof. unfold bound. induction l as [|a l IH]; simpl; intros H; [destruct H|]. destruct H as [<-|H]; [lia|]. specialize (IH H). lia. Qed.

Lemma pcode_inj K p q p' q' : (q < K)%N -> (q' < K)%N -> pcode K p q = pcode K p' q' -> p = p' /\ q = q'.
Proof. unfold pcode. intros H1 H2 E. rewrite (N.mul_comm p K), (N.mul_comm p' K) in E. apply N.div_mod_unique in E; auto. Qed.

Lemma prod_rule_in K ra rb r : In r (prod_rule K ra rb) <->
  sym ra = sym rb /\ length (ch ra) = length (ch rb) /\
  r = {| sym := sym ra; ch := zipcode K (ch ra) (ch rb); par := pcode K (par ra) (par rb) |}.
Proof.
  unfold prod_rule. destruct (N.eqb_spec (sym ra) (sym rb)) as [E|NE]; simpl.
  - destruct (Nat.eqb_spec (length (ch ra)) (length (ch rb))) as [E2|NE2]; simpl.
    + split; [intros [<-|[]]; auto | intros [_ [_ ->]]; auto].
    + split; [intros [] | intros [_ [? _]]; contradiction].
  - split; [intros [] | intros [? _]; contradiction].
Qed.

Lemma product_rule_in A B r : In r (rules (product A B)) <->
  exists ra rb, In ra (rules A) /\ In rb (rules B) /\ sym ra = sym rb /\ length (ch ra) = length (ch rb) /\
    r = {| sym := sym ra; ch := zipcode (bound (states B)) (ch ra) (ch rb); par := pcode (bound (states B)) (par ra) (par rb) |}.
Proof.
  unfold product; simpl. rewrite in_flat_map. split.
  - intros [ra [Ha H]]. apply in_flat_map in H as [rb [Hb H]]. apply prod_rule_in in H as [H1 [H2 H3]]. exists ra, rb; auto.
  - intros [ra [rb [Ha [Hb [H1 [H2 H3]]]]]]. exists ra. split; auto. apply in_flat_map. exists rb. split; auto. apply prod_rule_in; auto.
Qed.

Lemma Forall2_zip (P Q R : tree -> N -> Prop) K ts : forall ps qs,
  Forall2 P ts ps -> Forall2 Q ts qs -> (forall t p q, P t p -> Q t q -> R t (pcode K p q)) ->
  Forall2 R ts (zipcode K ps qs).
Proof.
  induction ts as [|t ts IH]; intros ps qs HP HQ H; inversion HP; inversion HQ; subst; simpl; constructor; auto.
Qed.

Lemma Forall2_unzip (P Q R : tree -> N -> Prop) K : forall ps qs ts, length ps = length qs ->
  Forall2 R ts (zipcode K ps qs) -> (forall t p q, In q qs -> R t (pcode K p q) -> P t p /\ Q t q) ->
  Forall2 P ts ps /\ Forall2 Q ts qs.
Proof.
  induction ps as [|p ps IH]; intros [|q qs] ts L F H; simpl in *; try discriminate; inversion F as [|t ? ts' ? Ht F']; subst.
  - split; constructor.
  - destruct (H t p q (or_introl eq_refl) Ht) as [HP HQ]. destruct (IH qs ts') as [FP FQ]; auto.
Qed.

Lemma product_reach_pair A B : forall t p, reach A t p -> forall q, reach B t q ->
  reach (product A B) t (pcode (bound (states B)) p q).
Proof.
  apply (reach_ind' A (fun t p => forall q, reach B t q -> reach (product A B) t (pcode (bound (states B)) p q))).
  intros f ts ra Ha Hs HFa IH q Rb. inversion Rb as [f' ts' rb Hb Hsb HFb]; subst.
  set (K := bound (states B)).
  apply (reach_intro _ {| sym := sym ra; ch := zipcode K (ch ra) (ch rb); par := pcode K (par ra) (par rb) |}); simpl; auto.
  - apply product_rule_in. exists ra, rb. repeat split; auto.
    rewrite <- (Forall2_length _ _ _ HFa), <- (Forall2_length _ _ _ HFb). reflexivity.
  - eapply (Forall2_zip (fun t p => forall q, reach B t q -> reach (product A B) t (pcode K p q)) (reach B)); eauto.
Qed.

Lemma product_reach_inv A B : forall t s, reach (product A B) t s ->
  exists p q, s = pcode (bound (states B)) p q /\ reach A t p /\ reach B t q.
Proof.
  set (K := bound (states B)).
  apply (reach_ind' (product A B) (fun t s => exists p q, s = pcode K p q /\ reach A t p /\ reach B t q)).
  intros f ts r Hr Hs _ IH. apply product_rule_in in Hr as [ra [rb [Ha [Hb [H1 [H2 ->]]]]]]. simpl in *. fold K in IH |- *.
  exists (par ra), (par rb). split; auto.
  destruct (Forall2_unzip (reach A) (reach B) _ K (ch ra) (ch rb) ts H2 IH) as [XA XB].
  { intros t p q Hq (p0 & q0 & E & Ra & Rb).
    apply pcode_inj in E as [-> ->]; auto; apply bound_gt; [apply (rule_states B rb Hb); auto | eapply reach_state; eauto]. }
  split; [apply (reach_intro A ra) | apply (reach_intro B rb)]; auto. congruence.
Qed.

Theorem product_state_lang A B t p q : In q (states B) ->
  reach (product A B) t (pcode (bound (states B)) p q) <-> reach A t p /\ reach B t q.
Proof.
  intros Hq. split.
  - intros R. apply product_reach_inv in R as [p' [q' [E [Ra Rb]]]].
    apply pcode_inj in E as [-> ->]; auto; apply bound_gt; auto. eapply reach_state; eauto.
  - intros [Ra Rb]. apply product_reach_pair; auto.
Qed.

Theorem product_lang A B t : accepts (product A B) t <-> accepts A t /\ accepts B t.
Proof.
  split.
  - intros [s [Hs R]]. simpl in Hs. apply in_flat_map in Hs as [p [Hp Hs]]. apply in_map_iff in Hs as [q [<- Hq]].
    apply product_state_lang in R as [Ra Rb]; [|apply finals_states; auto]. split; [exists p | exists q]; auto.
  - intros [[p [Hp Ra]] [q [Hq Rb]]]. exists (pcode (bound (states B)) p q). split; [|apply product_reach_pair; auto].
    simpl. apply in_flat_map. exists p. split; auto. apply in_map; auto.
Qed.

Theorem isect_td_lang A B t : accepts (isect_td A B) t <-> accepts A t /\ accepts B t.
Proof. unfold isect_td. rewrite <- product_lang. apply unreach_lang. Qed.

Theorem isect_bu_lang A B t : accepts (isect_bu A B) t <-> accepts A t /\ accepts B t.
Proof. unfold isect_bu. rewrite <- product_lang. apply pp_lang. Qed.

