(* C14 proofs: exactness of the flat images, injective => isomorphic (language and counts), any map => language
   grows, the same for symbols (language = relabelled language); the nested re-indexing written as the code
   iterates yields exactly the image (merged into the destination), keeps the store well-formed; gates. *)
From Coq Require Import List NArith Bool.
Import ListNotations.
From V Require Import ListAux Sem Prod.
From V Require TrimProofs Lang.
From V Require Import StoreDefs StoreProofs ReindexDefs.

Theorem image_exact_rules h A r' : In r' (rules (Lang.image h A)) <-> exists r, In r (rules A) /\ r' = Lang.map_rule h r.
Proof. apply in_map_eq. Qed.
Theorem image_exact_finals h A q' : In q' (finals (Lang.image h A)) <-> exists q, In q (finals A) /\ q' = h q.
Proof. apply in_map_eq. Qed.
Theorem simage_exact_rules g A r' : In r' (rules (simage g A)) <-> exists r, In r (rules A) /\ r' = smap_rule g r.
Proof. apply in_map_eq. Qed.

Lemma ta_set_eq_members (PR : rule -> Prop) (PF : N -> Prop) A B :
  (forall r, In r (rules B) <-> PR r) -> (forall q, In q (finals B) <-> PF q) ->
  (ta_set_eq A B = true <-> (forall r, In r (rules A) <-> PR r) /\ (forall q, In q (finals A) <-> PF q)).
Proof. intros HR HF. apply andb_iff; [apply set_eqR_members, HR | apply set_eqN_members, HF]. Qed.

Lemma ta_set_eq_spec A B : ta_set_eq A B = true <->
  (forall r, In r (rules A) <-> In r (rules B)) /\ (forall q, In q (finals A) <-> In q (finals B)).
Proof. apply ta_set_eq_members; reflexivity. Qed.

Lemma ta_nodup_spec R : ta_nodup R = true <-> NoDup (rules R) /\ NoDup (finals R).
Proof. apply andb_iff; [apply nodupRb_spec | apply nodupNb_spec]. Qed.

Lemma gate_ta_members (PR : rule -> Prop) (PF : N -> Prop) R B :
  (forall r, In r (rules B) <-> PR r) -> (forall q, In q (finals B) <-> PF q) ->
  (ta_nodup R && ta_set_eq R B = true <->
   NoDup (rules R) /\ NoDup (finals R) /\ (forall r, In r (rules R) <-> PR r) /\ (forall q, In q (finals R) <-> PF q)).
Proof.
  intros HR HF. rewrite <- and_assoc. apply andb_iff; [apply ta_nodup_spec | apply ta_set_eq_members; assumption].
Qed.

Lemma gate_ta_spec R B : ta_nodup R && ta_set_eq R B = true <->
  NoDup (rules R) /\ NoDup (finals R) /\
  (forall r, In r (rules R) <-> In r (rules B)) /\ (forall q, In q (finals R) <-> In q (finals B)).
Proof. apply gate_ta_members; reflexivity. Qed.

Lemma set_eq_accepts A B : (forall r, In r (rules A) <-> In r (rules B)) -> (forall q, In q (finals A) <-> In q (finals B)) ->
  forall t, accepts A t <-> accepts B t.
Proof.
  intros HR HF t. split; intros [q [Hq R]]; exists q; (split; [apply HF, Hq|]); revert R; apply TrimProofs.reach_mono;
    intros r; apply HR.
Qed.

Lemma set_eq_states A B : (forall r, In r (rules A) <-> In r (rules B)) -> (forall q, In q (finals A) <-> In q (finals B)) ->
  forall x, In x (states A) <-> In x (states B).
Proof.
  intros HR HF x. rewrite !states_in.
  split; (intros [[r [Hr Hx]]|H]; [left; exists r; split; auto; apply HR, Hr | right; apply HF, H]).
Qed.

Lemma NoDup_length_nodup {X} (dec : forall a b : X, {a = b} + {a <> b}) (l m : list X) :
  NoDup l -> (forall x, In x l <-> In x m) -> length l = length (nodup dec m).
Proof. intros ND H. rewrite <- (nodup_fixed_point dec ND) at 1. apply nodup_len_seteq, H. Qed.

Lemma map_inj_on h S : Lang.inj_on h S -> forall l1 l2, (forall x, In x l1 -> In x S) -> (forall x, In x l2 -> In x S) ->
  map h l1 = map h l2 -> l1 = l2.
Proof.
  intros Hinj. induction l1 as [|a l1 IH]; destruct l2 as [|b l2]; simpl; intros H1 H2 E; try discriminate; auto.
  inversion E. f_equal; [apply Hinj; auto | apply IH; auto].
Qed.

Lemma map_rule_inj h A : Lang.inj_on h (states A) -> forall r1 r2, In r1 (rules A) -> In r2 (rules A) ->
  Lang.map_rule h r1 = Lang.map_rule h r2 -> r1 = r2.
Proof.
  intros Hinj r1 r2 H1 H2 E. destruct (rule_states A r1 H1) as [P1 C1]. destruct (rule_states A r2 H2) as [P2 C2].
  unfold Lang.map_rule in E. inversion E as [[Es Ec Ep]]. destruct r1, r2; simpl in *. f_equal; auto.
  eapply map_inj_on; eauto.
Qed.

Theorem image_inj_iso h A : Lang.inj_on h (states A) ->
  (forall t, accepts (Lang.image h A) t <-> accepts A t) /\
  length (nodup N.eq_dec (states (Lang.image h A))) = length (nodup N.eq_dec (states A)) /\
  length (nodup rule_eq_dec (rules (Lang.image h A))) = length (nodup rule_eq_dec (rules A)).
Proof.
  intros Hinj. split; [apply Lang.image_lang_inj; auto|]. split.
  - rewrite (nodup_len_seteq N.eq_dec (states (Lang.image h A)) (map h (states A))).
    + apply nodup_map_len. intros x y Hx Hy. apply Hinj; auto.
    + intros x. apply Lang.image_states.
  - simpl. apply nodup_map_len. apply map_rule_inj; auto.
Qed.

Theorem image_lang_sup h A : forall t, accepts A t -> accepts (Lang.image h A) t.
Proof. exact (Lang.image_lang_sup h A). Qed.

Lemma image_ext h h' A : (forall x, In x (states A) -> h x = h' x) -> Lang.image h A = Lang.image h' A.
Proof.
  intros H. unfold Lang.image. f_equal.
  - apply map_ext_in. intros r Hr. destruct (rule_states A r Hr) as [P C]. unfold Lang.map_rule. f_equal; [|apply H; auto].
    apply map_ext_in. intros c Hc. apply H; auto.
  - apply map_ext_in. intros q Hq. apply H, finals_states, Hq.
Qed.

Lemma simage_states g A : states (simage g A) = states A.
Proof. unfold states. simpl. f_equal. rewrite flat_map_concat_map, map_map, <- flat_map_concat_map. auto. Qed.

Lemma reach_simage g A t q : reach A t q -> reach (simage g A) (relabel g t) q.
Proof.
  revert t q. apply reach_ind'. intros f ts r Hr <- _ IH. simpl.
  apply (reach_node (simage g A) _ _ (smap_rule g r)); [apply in_map, Hr | auto | apply Forall2_map_l, IH].
Qed.

Lemma reach_simage_inv g A : forall t' q, reach (simage g A) t' q -> exists t, t' = relabel g t /\ reach A t q.
Proof.
  apply (reach_ind' (simage g A) (fun t' q => exists t, t' = relabel g t /\ reach A t q)).
  intros f ts' r' Hr' <- _ IH. apply in_map_iff in Hr' as [r [<- Hr]]. simpl in *.
  assert (X : exists ts, ts' = map (relabel g) ts /\ Forall2 (reach A) ts (ch r)).
  { clear Hr. induction IH as [|t' c ts' cs [t [-> Ht]] F [ts [-> Hts]]].
    - exists []. split; auto.
    - exists (t :: ts). split; auto. }
  destruct X as [ts [-> Hts]]. exists (Node (sym r) ts). split; auto. constructor; auto.
Qed.

Theorem simage_lang g A t' : accepts (simage g A) t' <-> exists t, t' = relabel g t /\ accepts A t.
Proof.
  split.
  - intros [q [Hq R]]. apply reach_simage_inv in R as [t [-> R]]. exists t. split; auto. exists q; auto.
  - intros [t [-> [q [Hq R]]]]. exists q. split; auto. apply reach_simage; auto.
Qed.

Theorem simage_inj_iso g A : Lang.inj_on g (map sym (rules A)) ->
  states (simage g A) = states A /\
  length (nodup rule_eq_dec (rules (simage g A))) = length (nodup rule_eq_dec (rules A)).
Proof.
  intros Hinj. split; [apply simage_states|]. simpl. apply nodup_map_len.
  intros r1 r2 H1 H2 [= Es Ec Ep]. apply Hinj in Es; auto using in_map. destruct r1, r2; simpl in *. subst; auto.
Qed.

Theorem gate_image_spec h A R : gate_image h A R = true <->
  NoDup (rules R) /\ NoDup (finals R) /\
  (forall r', In r' (rules R) <-> exists r, In r (rules A) /\ r' = Lang.map_rule h r) /\
  (forall q', In q' (finals R) <-> exists q, In q (finals A) /\ q' = h q).
Proof. apply gate_ta_members; [apply image_exact_rules | apply image_exact_finals]. Qed.

Theorem gate_image_sup h A R : gate_image h A R = true -> forall t, accepts A t -> accepts R t.
Proof.
  intros G t Ht. apply gate_ta_spec in G as [_ [_ [HR HF]]].
  apply (set_eq_accepts R (Lang.image h A) HR HF), image_lang_sup, Ht.
Qed.

Theorem gate_image_inj h A R : gate_image h A R = true -> Lang.inj_on h (states A) ->
  (forall t, accepts R t <-> accepts A t) /\
  length (nodup N.eq_dec (states R)) = length (nodup N.eq_dec (states A)) /\
  length (rules R) = length (nodup rule_eq_dec (rules A)).
Proof.
  intros G Hinj. apply gate_ta_spec in G as [N1 [_ [HR HF]]].
  destruct (image_inj_iso h A Hinj) as [L [S1 S2]]. split; [|split].
  - intros t. rewrite (set_eq_accepts R (Lang.image h A) HR HF). apply L.
  - rewrite <- S1. apply nodup_len_seteq, set_eq_states; auto.
  - rewrite <- S2. apply NoDup_length_nodup; auto.
Qed.

Theorem gate_simage_spec g A R : gate_simage g A R = true <->
  NoDup (rules R) /\ NoDup (finals R) /\
  (forall r', In r' (rules R) <-> exists r, In r (rules A) /\ r' = smap_rule g r) /\
  (forall q, In q (finals R) <-> In q (finals A)).
Proof. apply gate_ta_members; [apply simage_exact_rules | reflexivity]. Qed.

Theorem gate_simage_lang g A R : gate_simage g A R = true ->
  forall t', accepts R t' <-> exists t, t' = relabel g t /\ accepts A t.
Proof.
  intros G t'. apply gate_ta_spec in G as [_ [_ [HR HF]]].
  rewrite (set_eq_accepts R (simage g A) HR HF). apply simage_lang.
Qed.

Theorem gate_simage_inj g A R : gate_simage g A R = true -> Lang.inj_on g (map sym (rules A)) ->
  (forall x, In x (states R) <-> In x (states A)) /\ length (rules R) = length (nodup rule_eq_dec (rules A)).
Proof.
  intros G Hinj. apply gate_ta_spec in G as [N1 [_ [HR HF]]].
  destruct (simage_inj_iso g A Hinj) as [S1 S2]. split.
  - rewrite <- S1. apply set_eq_states; auto.
  - rewrite <- S2. apply NoDup_length_nodup; auto.
Qed.

Lemma inj_onb_spec h l : inj_onb h l = true <-> Lang.inj_on h l.
Proof. exact (Lang.inj_on_forallb h l). Qed.

Lemma total_on_spec m l : total_on m l = true <-> forall x, In x l -> exists y, get x m = Some y.
Proof.
  unfold total_on, has_key. rewrite forallb_forall. split; intros H x Hx; specialize (H x Hx).
  - destruct (get x m) as [y|]; [eauto | discriminate].
  - destruct H as [y ->]. reflexivity.
Qed.

Theorem gate_translator_sound pre m A : gate_translator pre m A = true ->
  NoDup (keys m) /\ (forall x, In x (states A) -> exists y, get x m = Some y) /\
  (forall k v, In (k, v) pre -> get k m = Some v).
Proof.
  intros G. apply andb_prop in G as [G T]. apply andb_prop in G as [N1 E].
  split; [apply nodupNb_spec, N1|]. split; [apply total_on_spec, T|].
  intros k v H. apply (proj1 (forallb_forall _ _) E) in H. simpl in H. destruct (get k m) as [v'|]; [|discriminate].
  apply N.eqb_eq in H as ->. reflexivity.
Qed.

Theorem app_map_total m A off off' : total_on m (states A) = true -> Lang.image (app_map m off) A = Lang.image (app_map m off') A.
Proof.
  intros T. apply image_ext. intros x Hx. unfold app_map.
  destruct (proj1 (total_on_spec _ _) T x Hx) as [y ->]. reflexivity.
Qed.

Lemma In_reindex_ts h ts0 : forall d t, In t (reindex_ts h ts0 d) <-> In t d \/ In t (map (map h) ts0).
Proof. apply (In_fold_add (@In tuple) ins), In_ins. Qed.

(* Re-indexing a store without empty clusters and tuple sets is adding the images of its rules one by one:
   what the rules of one tuple set, and then of one cluster, do to the entry they share is one update. *)
Lemma reindex_as_adds h S : (forall q cl, In (q, cl) S -> cl <> [] /\ forall a ts, In (a, ts) cl -> ts <> []) ->
  forall D, reindex_nested h S D = fold_left (fun D r => add_rule (Lang.map_rule h r) D) (iter S) D.
Proof.
  intros HS D. symmetry. apply fold_left_flat_map. intros [q cl] Hcl D1. destruct (HS q cl Hcl) as [Hne Hts].
  transitivity (fold_left (fun D e => upd (h q) [] (upd (fst e) [] (reindex_ts h (snd e))) D) cl D1).
  - apply fold_left_flat_map. intros [a ts] Ha D2. rewrite fold_left_map.
    apply (fold_upd_same (h q) [] (fun t => upd a [] (ins (map h t))) ts (Hts a ts Ha)).
    apply (fold_upd_same a [] (fun t => ins (map h t)) ts (Hts a ts Ha)). reflexivity.
  - apply (fold_upd_same (h q) [] (fun e => upd (fst e) [] (reindex_ts h (snd e))) cl Hne). reflexivity.
Qed.

Lemma fold_add_contains (f : rule -> rule) l : forall D r', contains (fold_left (fun D r => add_rule (f r) D) l D) r' = true <->
  contains D r' = true \/ In r' (map f l).
Proof. apply (In_fold_add (fun r D => contains D r = true) add_rule), contains_add. Qed.

Lemma fold_add_wf (f : rule -> rule) l D : wf_st D -> wf_st (fold_left (fun D r => add_rule (f r) D) l D).
Proof. apply fold_left_inv. intros s r _. apply add_rule_wf. Qed.

Lemma reindex_nested_wf h S D : wf_st S -> wf_st D -> wf_st (reindex_nested h S D).
Proof. intros WS WD. rewrite reindex_as_adds by apply wf_no_empty, WS. apply fold_add_wf, WD. Qed.

Theorem reindex_nested_image h S D : wf_st S -> wf_st D ->
  NoDup (iter (reindex_nested h S D)) /\
  forall r, In r (iter (reindex_nested h S D)) <-> In r (iter D) \/ exists r0, In r0 (iter S) /\ r = Lang.map_rule h r0.
Proof.
  intros WS WD. pose proof (reindex_nested_wf h S D WS WD) as W. split; [apply wf_iter_nodup, W|]. intros r.
  rewrite (iter_contains _ _ W), (iter_contains _ _ WD), reindex_as_adds by apply wf_no_empty, WS.
  rewrite <- in_map_eq. apply fold_add_contains.
Qed.

Theorem reindex_aut_wf h addf a d : wf a -> wf d -> wf (reindex_aut h addf a d).
Proof.
  intros [Wa Fa] [Wd Fd]. split; simpl; [apply reindex_nested_wf; auto|].
  destruct addf; auto. apply fold_addN_NoDup, Fd.
Qed.

Theorem reindex_model_passes h addf a d : wf a -> wf d ->
  gate_reindex h addf (flat a) (flat d) (flat (reindex_aut h addf a d)) = true.
Proof.
  intros Wa Wd. destruct (reindex_aut_wf h addf a d Wa Wd) as [_ NF]. destruct Wa as [Wa _], Wd as [Wd _].
  destruct (reindex_nested_image h (st a) (st d) Wa Wd) as [ND HI]. apply gate_ta_spec.
  split; [exact ND|]. split; [exact NF|]. split.
  - intros r. simpl. rewrite HI. destruct addf; simpl; rewrite in_app_iff, in_map_eq; reflexivity.
  - intros q. simpl. destruct addf; simpl; [rewrite In_fold_addN, in_app_iff | rewrite app_nil_r]; reflexivity.
Qed.

(* TranslateSymbols as coded *)
Theorem translate_model_passes g a : wf a -> gate_simage g (flat a) (flat (translate_aut g a)) = true.
Proof.
  intros [Wa Fa]. apply gate_simage_spec. simpl.
  assert (W : wf_st (fold_left (fun D r => add_rule (smap_rule g r) D) (iter (st a)) [])) by (apply fold_add_wf; split; constructor).
  split; [apply wf_iter_nodup, W|]. split; auto. split; [|tauto].
  intros r'. rewrite (iter_contains _ _ W), fold_add_contains, in_map_eq. split; auto. intros [H|H]; auto. discriminate.
Qed.

Lemma fold_live_Add l : forall L, fold_left live_step (map Add l) L = rev l ++ L.
Proof. induction l as [|r l IH]; simpl; intros L; auto. rewrite IH, <- app_assoc. auto. Qed.
Lemma fold_livef_Add l : forall L, fold_left livef_step (map Add l) L = L.
Proof. induction l; simpl; auto. Qed.

Theorem of_ta_flat A : wf (of_ta A) /\ ta_set_eq (flat (of_ta A)) A = true.
Proof.
  split; [apply run_wf|]. apply ta_set_eq_spec. unfold of_ta, flat. simpl. split.
  - intros r. rewrite iter_complete, live_snoc. unfold live. rewrite fold_live_Add, app_nil_r. symmetry. apply in_rev.
  - intros q. rewrite finals_run, livef_snoc. unfold livef. rewrite fold_livef_Add. simpl. rewrite app_nil_r. tauto.
Qed.

Theorem model_image_passes h A : gate_image h A (flat (reindex_aut h true (of_ta A) init)) = true.
Proof.
  destruct (of_ta_flat A) as [W E]. apply ta_set_eq_spec in E as [ER EF].
  destruct (proj1 (gate_ta_spec _ _) (reindex_model_passes h true (of_ta A) init W init_wf)) as [N1 [N2 [HR HF]]].
  apply gate_image_spec. split; auto. split; auto.
  split; intros x; [rewrite HR | rewrite HF]; simpl; rewrite in_map_eq; [setoid_rewrite ER | setoid_rewrite EF]; reflexivity.
Qed.

Example gate_image_example :
  let A := {| rules := [ {| sym := 0; ch := []; par := 1 |}; {| sym := 2; ch := [1; 2]; par := 2 |} ]; finals := [2] |}%N in
  let h := app_map [(1, 7); (2, 7)]%N 0 in
  gate_image h A (flat (reindex_aut h true (of_ta A) init)) = true /\ inj_onb h (states A) = false /\
  gate_translator [(1, 7)]%N [(1, 7); (2, 7)]%N A = true.
Proof. vm_compute. auto. Qed.
