(* C08 — the arity prefix of the top-down BDD encoding (BDDTDTreeAutCore::addArityToSymbol): a transition of the top-down
   automaton is keyed by the 16 symbol bits followed by SYMBOL_ARITY_LENGTH = 6 bits holding the arity. Model: the key is
   sym + 2^16 * arity. Within the guards (sym < 2^16, arity <= MAX_SYMBOL_ARITY = 63) the key determines symbol and arity, so
   rules of different arities never share a key; outside the guard they can. *)
From Coq Require Import List NArith Bool.
Import ListNotations.

Definition SYMBOL_BITS : N := 16.
Definition ARITY_BITS : N := 6.
Definition MAX_ARITY : N := 2 ^ ARITY_BITS - 1.
Definition td_key (sym arity : N) : N := (sym + 2 ^ SYMBOL_BITS * (arity mod 2 ^ ARITY_BITS))%N.     (* 6 bits are stored *)
Definition key_sym (k : N) : N := (k mod 2 ^ SYMBOL_BITS)%N.
Definition key_arity (k : N) : N := (k / 2 ^ SYMBOL_BITS)%N.
Definition in_guard (sym arity : N) : bool := N.ltb sym (2 ^ SYMBOL_BITS) && N.leb arity MAX_ARITY.

Theorem td_key_decode sym arity : in_guard sym arity = true -> key_sym (td_key sym arity) = sym /\ key_arity (td_key sym arity) = arity.
Proof.
  unfold in_guard, td_key, key_sym, key_arity. rewrite andb_true_iff, N.ltb_lt, N.leb_le. intros [H1 H2].
  change (2 ^ ARITY_BITS)%N with (N.succ MAX_ARITY). rewrite (N.mod_small arity) by apply N.lt_succ_r, H2.
  rewrite N.mul_comm. split.
  - rewrite N.mod_add by discriminate. apply N.mod_small, H1.
  - rewrite N.div_add by discriminate. rewrite (N.div_small _ _ H1). reflexivity.
Qed.

Theorem td_key_injective s1 a1 s2 a2 : in_guard s1 a1 = true -> in_guard s2 a2 = true -> td_key s1 a1 = td_key s2 a2 -> s1 = s2 /\ a1 = a2.
Proof.
  intros G1 G2 E. destruct (td_key_decode s1 a1 G1) as [S1 A1]. destruct (td_key_decode s2 a2 G2) as [S2 A2].
  rewrite E in S1, A1. split; congruence.
Qed.

(* outside the guard two different arities collide (the assert in addArityToSymbol is compiled out in release builds) *)
Theorem td_key_guard_needed : td_key 5 64 = td_key 5 0 /\ in_guard 5 64 = false.
Proof. vm_compute. split; reflexivity. Qed.
