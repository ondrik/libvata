(* C15 — the bottom-up search of GetCandidateTree, modelled with its data structures: all nullary rules are kept, then rounds
   over the rules keep ONE justifying rule per newly reached state, until nothing changes; finally the reached final states
   and top-down pruning. (The code additionally stops at the first reached final state; stopping later keeps more rules,
   harmlessly.) Theorem: whatever the order of the rules, the result satisfies candidate_ok, hence the property. *)
From Coq Require Import List NArith Bool Arith Lia.
Import ListNotations.
From V Require Import Sem Prod TrimDefs TrimProofs CandDefs CandProofs.

Definition cstate := (list N * list rule)%type.

Definition scan (SK : cstate) (r : rule) : cstate :=
  let (S, K) := SK in
  if memN (par r) S then SK
  else if forallb (fun c => memN c S) (ch r) then (par r :: S, r :: K) else SK.

Definition round (A : ta) (SK : cstate) : cstate := fold_left scan (rules A) SK.

Fixpoint citer (A : ta) (fuel : nat) (SK : cstate) : cstate :=
  match fuel with
  | 0 => SK
  | S f => let SK' := round A SK in
           if Nat.eqb (length (fst SK')) (length (fst SK)) then SK else citer A f SK'
  end.

Definition is_nullary (r : rule) : bool := match ch r with [] => true | _ => false end.
Definition cinit (A : ta) : cstate :=
  let L := filter is_nullary (rules A) in (nodup N.eq_dec (map par L), L).

Definition cand_raw (A : ta) : ta :=
  let (S, K) := citer A (S (length (states A))) (cinit A) in
  {| rules := K; finals := filter (fun q => memN q S) (finals A) |}.
Definition cand_model (A : ta) : ta := remove_unreachable (cand_raw A).

Definition rules_only (K : list rule) : ta := {| rules := K; finals := [] |}.

Record CInv (A : ta) (SK : cstate) : Prop := {
  ci_rules : incl (snd SK) (rules A);
  ci_states : incl (fst SK) (states A);
  ci_nodup : NoDup (fst SK);
  ci_trees : forall q, In q (fst SK) -> exists t, reach (rules_only (snd SK)) t q }.

Lemma scan_mono SK r : incl (fst SK) (fst (scan SK r)).
Proof.
  destruct SK as [S K]. unfold scan. destruct (memN (par r) S); [apply incl_refl|].
  destruct (forallb _ _); [apply incl_tl|]; apply incl_refl.
Qed.

Lemma scan_fires SK r : incl (ch r) (fst SK) -> In (par r) (fst (scan SK r)).
Proof.
  destruct SK as [S K]. unfold scan. simpl. intros Hc. apply subN_spec in Hc. unfold subN in Hc. rewrite Hc.
  destruct (memN (par r) S) eqn:Ep; [apply memN_In, Ep | left; reflexivity].
Qed.

Lemma scan_inv A SK r : In r (rules A) -> CInv A SK -> CInv A (scan SK r).
Proof.
  intros Hr [I1 I2 I3 I4]. destruct SK as [S K]. unfold scan. simpl in *.
  destruct (memN (par r) S) eqn:Ep; [constructor; auto|].
  destruct (forallb (fun c => memN c S) (ch r)) eqn:Ec; [|constructor; auto].
  constructor; simpl.
  - intros x [<-|Hx]; auto.
  - intros x [<-|Hx]; auto. apply rule_states; auto.
  - constructor; auto. intros H. apply memN_In in H. congruence.
  - assert (M : forall q, In q S -> exists t, reach (rules_only (r :: K)) t q).
    { intros q Hq. destruct (I4 q Hq) as [t Ht]. exists t. revert Ht. apply reach_mono, incl_tl, incl_refl. }
    intros q [<-|Hq]; auto. apply reach_rule; [left; auto|]. intros c Hc. apply M, (proj1 (subN_spec _ _) Ec), Hc.
Qed.

Lemma fold_scan_inv A : forall l SK, incl l (rules A) -> CInv A SK -> CInv A (fold_left scan l SK).
Proof. induction l as [|r l IH]; simpl; intros SK Hl I; auto. apply incl_cons_inv in Hl as [H0 Hl]. apply IH, scan_inv; auto. Qed.

Lemma fold_scan_spec : forall l SK, incl (fst SK) (fst (fold_left scan l SK)) /\
  forall r, In r l -> incl (ch r) (fst SK) -> In (par r) (fst (fold_left scan l SK)).
Proof.
  induction l as [|r0 l IH]; simpl; intros SK; [split; auto using incl_refl; intros r []|].
  destruct (IH (scan SK r0)) as (M & F). pose proof (scan_mono SK r0) as M0. split.
  - apply (incl_tran M0 M).
  - intros r [<-|Hr] Hc; [apply M, scan_fires, Hc | apply (F r Hr (incl_tran Hc M0))].
Qed.

Lemma round_inv A SK : CInv A SK -> CInv A (round A SK).
Proof. apply fold_scan_inv, incl_refl. Qed.
Lemma round_mono A SK : incl (fst SK) (fst (round A SK)).
Proof. apply fold_scan_spec. Qed.

Lemma round_same_closed A SK : NoDup (fst SK) -> length (fst (round A SK)) = length (fst SK) -> closed A (fst SK).
Proof.
  intros I E r Hr Hc. apply (NoDup_length_incl I (Nat.eq_le_incl _ _ E) (round_mono A SK)), fold_scan_spec; auto.
Qed.

Lemma citer_inv A fuel : forall SK, CInv A SK -> CInv A (citer A fuel SK).
Proof. induction fuel as [|f IH]; simpl; intros SK I; auto. destruct (Nat.eqb _ _); auto. apply IH, round_inv; auto. Qed.

Lemma citer_closed A fuel : forall SK, CInv A SK -> length (states A) < fuel + length (fst SK) -> closed A (fst (citer A fuel SK)).
Proof.
  induction fuel as [|f IH]; simpl; intros SK I Hf.
  - exfalso. pose proof (NoDup_incl_length (ci_nodup A SK I) (ci_states A SK I)). lia.
  - destruct (Nat.eqb_spec (length (fst (round A SK))) (length (fst SK))) as [E|NE].
    + apply round_same_closed; [apply I | auto].
    + apply IH; [apply round_inv; auto|].
      pose proof (NoDup_incl_length (ci_nodup A SK I) (round_mono A SK)). lia.
Qed.

Lemma cinit_inv A : CInv A (cinit A).
Proof.
  unfold cinit. constructor; simpl.
  - intros r Hr. apply filter_In in Hr. tauto.
  - intros q Hq. apply nodup_In, in_map_iff in Hq as [r [<- Hr]]. apply filter_In in Hr as [Hr _]. apply rule_states; auto.
  - apply NoDup_nodup.
  - intros q Hq. apply nodup_In, in_map_iff in Hq as (r & <- & Hr). apply reach_rule; [exact Hr|].
    apply filter_In in Hr as [_ Hn]. unfold is_nullary in Hn. destruct (ch r); [intros c []|discriminate].
Qed.

Theorem cand_model_ok A : candidate_ok A (cand_model A) = true.
Proof.
  unfold candidate_ok, cand_model, cand_raw.
  pose proof (citer_inv A (S (length (states A))) (cinit A) (cinit_inv A)) as [I1 _ _ I4].
  pose proof (citer_closed A _ (cinit A) (cinit_inv A) (Nat.lt_lt_add_r _ _ _ (Nat.lt_succ_diag_r _))) as C.
  destruct (citer A (S (length (states A))) (cinit A)) as [S K]. cbn [fst snd] in *.
  set (R := {| rules := K; finals := filter (fun q => memN q S) (finals A) |}).
  apply andb_true_iff. split.
  - unfold cand_sub. apply andb_true_iff. split.
    + apply subR_spec. eapply incl_tran; [apply unreach_rules_sub | exact I1].
    + apply subN_spec. rewrite unreach_finals. apply incl_filter.
  - destruct (is_empty A) eqn:E; simpl; auto. apply negb_true_iff, nonempty_spec.
    apply nonempty_spec in E as (t & q & Hq & Rq).
    assert (HqS : In q S) by apply (reach_closed A S C t q Rq).
    destruct (I4 q HqS) as [t' Ht']. exists t'. apply (unreach_lang R t'). exists q. split.
    + apply filter_In. split; auto. apply memN_In, HqS.
    + apply (reach_mono (rules_only K) R (incl_refl _)), Ht'.
Qed.

Theorem cand_model_property A : cand_prop A (cand_model A).
Proof. apply candidate_ok_sound, cand_model_ok. Qed.
