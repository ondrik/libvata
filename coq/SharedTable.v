(* Operands that share one transition table (copies of one automaton that differ in their final / start states only — the
   situation copy-on-write creates all the time) invite shortcuts "compare / combine the final states only". This file
   states, about the model, which of these shortcuts are sound and which are not:
     * inclusion:     F_A <= F_B is SUFFICIENT for L(A) <= L(B)                              (shared_finals_incl)
                      but not necessary                                                      (shared_finals_incl_not_necessary)
     * intersection:  L(A_{F1 n F2}) <= L(A_F1) n L(A_F2)                                    (shared_isect_finals_sound)
                      but the converse fails for nondeterministic tables                     (shared_isect_finals_refuted)
     * union:         L(A_{F1 u F2}) = L(A_F1) u L(A_F2)   (the one shortcut libvata takes)   (shared_union_finals_exact)
     * word automata: with one edge list, final states included but start states not,
                      inclusion can fail                                                     (wshared_starts_matter)
                      start AND final states included is sufficient                          (wshared_incl_sufficient)
     * union without renaming is exact only under full disjointness of the STATE sets; disjointness of the rule-owning and
       final states alone is not enough                                                      (owners_disjoint_not_enough)
     * rules of an earlier right operand left behind in a shared table become live in a later union
       (defect D14 of DESIGN.md)                                                             (ud_garbage_becomes_live)
   The refutations are closed witnesses decided by the verified deciders (vm_compute). *)
From Coq Require Import List NArith.
Import ListNotations.
From V Require Import Sem Prod Incl TrimProofs Lang BinopProofs NfaProofs.

Local Open Scope N_scope.

Definition fsub (F G : list N) := forall q, In q F -> In q G.

Lemma accepts_eval A t : accepts A t <-> existsb (fun q => memN q (finals A)) (eval A t) = true.
Proof.
  rewrite existsb_exists. split.
  - intros [q [Hf Hr]]. exists q. split; [apply eval_spec; auto | apply memN_In; auto].
  - intros [q [Hr Hf]]. exists q. split; [apply memN_In; auto | apply eval_spec; auto].
Qed.

Theorem shared_finals_incl A F G : fsub F G -> lincl (with_finals F A) (with_finals G A).
Proof.
  intros S t. rewrite !with_finals_accepts. intros [q [Hq Hr]]. exists q. split; [apply S; exact Hq | exact Hr].
Qed.

Definition mk (f : N) (c : list N) (p : N) : rule := {| sym := f; ch := c; par := p |}.

(* two states with the same language: {1} is not a subset of {2}, the inclusion holds all the same *)
Definition tblA : ta := {| rules := [mk 0 [] 1; mk 0 [] 2]; finals := [] |}.
Theorem shared_finals_incl_not_necessary :
  exists A F G, lincl (with_finals F A) (with_finals G A) /\ ~ fsub F G.
Proof.
  exists tblA, [1], [2]. split.
  - apply incl_dec_spec. vm_compute. reflexivity.
  - intros H. destruct (H 1 (or_introl eq_refl)) as [E|[]]. discriminate E.
Qed.

Definition finter (F G : list N) : list N := filter (fun q => memN q G) F.
Lemma finter_In F G q : In q (finter F G) <-> In q F /\ In q G.
Proof. unfold finter. rewrite filter_In, memN_In. tauto. Qed.

Theorem shared_isect_finals_sound A F G t :
  accepts (with_finals (finter F G) A) t -> accepts (with_finals F A) t /\ accepts (with_finals G A) t.
Proof.
  rewrite !with_finals_accepts. intros [q [Hq Hr]]. apply finter_In in Hq. destruct Hq. split; exists q; auto.
Qed.

(* the tree a is accepted through state 1 by one operand and through state 2 by the other: no common final state *)
Theorem shared_isect_finals_refuted :
  exists A F G t, accepts (with_finals F A) t /\ accepts (with_finals G A) t /\ ~ accepts (with_finals (finter F G) A) t.
Proof.
  exists tblA, [1], [2], (Node 0 []).
  split; [apply accepts_eval; vm_compute; reflexivity|]. split; [apply accepts_eval; vm_compute; reflexivity|].
  intros H. apply accepts_eval in H. vm_compute in H. discriminate H.
Qed.

Theorem shared_union_finals_exact A F G t :
  accepts (with_finals (F ++ G) A) t <-> accepts (with_finals F A) t \/ accepts (with_finals G A) t.
Proof.
  rewrite !with_finals_accepts. split.
  - intros [q [Hq Hr]]. apply in_app_or in Hq. destruct Hq; [left|right]; exists q; auto.
  - intros [[q [Hq Hr]]|[q [Hq Hr]]]; exists q; split; auto; apply in_or_app; auto.
Qed.

(* M : 0 -a-> 1 -b-> 2, start {0}, final {2}; the copy got the further start state 1: it accepts "b", M does not *)
Definition nM : nfa := {| nstarts := [0]; nfinals := [2]; edges := [(0, 0, 1); (1, 1, 2)] |}.
Definition nN : nfa := {| nstarts := [0; 1]; nfinals := [2]; edges := [(0, 0, 1); (1, 1, 2)] |}.
Theorem wshared_starts_matter :
  edges nN = edges nM /\ fsub (nfinals nN) (nfinals nM) /\ ~ wlincl nN nM.
Proof.
  split; [reflexivity|]. split; [intros q H; exact H|].
  intros H. apply wincl_dec_spec in H. vm_compute in H. discriminate H.
Qed.

Theorem wshared_incl_sufficient (A B : nfa) :
  edges A = edges B -> fsub (nstarts A) (nstarts B) -> fsub (nfinals A) (nfinals B) -> wlincl A B.
Proof.
  intros E Hs Hf. apply nfa_sub_lang, nfa_sub_spec. rewrite E. exact (conj Hs (conj Hf (incl_refl _))).
Qed.

(* A: a -> 0 (final 0).  B: g(0) -> 10 (final 10); state 0 has no rule in B, so L(B) is empty. The rule-owning and final
   states {0} and {10} are disjoint, the state sets are not; appending the tables without renaming accepts g(a) *)
Definition uA : ta := {| rules := [mk 0 [] 0]; finals := [0] |}.
Definition uB : ta := {| rules := [mk 2 [0] 10]; finals := [10] |}.
Definition owners (A : ta) : list N := map par (rules A) ++ finals A.
Theorem owners_disjoint_not_enough :
  disjoint (owners uA) (owners uB) /\
  exists t, accepts (ta_app uA uB) t /\ ~ accepts uA t /\ ~ accepts uB t.
Proof.
  split; [apply disjointb_spec; vm_compute; reflexivity|].
  exists (Node 2 [Node 0 []]). split; [apply accepts_eval; vm_compute; reflexivity|].
  split; intros H; apply accepts_eval in H; vm_compute in H; discriminate H.
Qed.

(* defect D14: the rules of an earlier right operand left behind in a table that the left operand shares become live in a later union.
   A = {f(a,a)} over states 100, 101;  B = g+(b) over states 0, 1;  C = {g(a)} over states 0, 1 (B and C re-use numbers, each is
   disjoint from A). The table "rules A ++ rules B" (what UnionDisjointStates(A, B) left in A's shared table) united with C accepts
   g(g(a)), which is neither in L(A) nor in L(C). *)
Definition dA : ta := {| rules := [mk 0 [] 100; mk 3 [100; 100] 101]; finals := [101] |}.
Definition dB : ta := {| rules := [mk 1 [] 0; mk 2 [0] 1; mk 2 [1] 1]; finals := [1] |}.
Definition dC : ta := {| rules := [mk 0 [] 0; mk 2 [0] 1]; finals := [1] |}.
Definition polluted (A B : ta) : ta := {| rules := rules A ++ rules B; finals := finals A |}.     (* A after the call: same final states *)
Theorem ud_garbage_becomes_live :
  disjoint (states dA) (states dB) /\ disjoint (states dA) (states dC) /\
  (forall t, accepts (polluted dA dB) t <-> accepts dA t) /\
  exists t, accepts (ta_app (polluted dA dB) dC) t /\ ~ accepts dA t /\ ~ accepts dC t.
Proof.
  split; [apply disjointb_spec; vm_compute; reflexivity|].
  split; [apply disjointb_spec; vm_compute; reflexivity|].
  split.
  - apply equiv_dec_spec. vm_compute. reflexivity.
  - exists (Node 2 [Node 2 [Node 0 []]]). split; [apply accepts_eval; vm_compute; reflexivity|].
    split; intros H; apply accepts_eval in H; vm_compute in H; discriminate H.
Qed.
