(* C15 — what the gate on a witness automaton decides (cand_prop, defined here), and that a sub-automaton which is non-empty
   whenever the original is satisfies it. *)
From Coq Require Import List NArith Bool.
Import ListNotations.
From V Require Import Sem Prod Incl TrimProofs CandDefs.

Definition cand_prop (A R : ta) := (forall t, accepts R t -> accepts A t) /\ ((exists t, accepts A t) -> exists t, accepts R t).

Theorem cand_gate_spec A R : cand_gate A R = true <-> cand_prop A R.
Proof.
  unfold cand_gate, cand_prop. rewrite andb_true_iff, incl_dec_spec, orb_true_iff, negb_true_iff. unfold lincl. split.
  - intros [H1 [H2|H2]]; split; auto.
    + intros [t Ht]. exfalso. apply (proj1 (is_empty_spec A) H2 t Ht).
    + intros _. apply nonempty_spec; auto.
  - intros [H1 H2]. split; auto. destruct (is_empty A) eqn:E; auto. right. apply nonempty_spec. apply H2. apply nonempty_spec; auto.
Qed.

Theorem cand_sub_lang A R : cand_sub A R = true -> forall t, accepts R t -> accepts A t.
Proof.
  unfold cand_sub. rewrite andb_true_iff, subR_spec, subN_spec. intros [H1 H2] t [q [Hq Rq]].
  exists q. split; auto. eapply reach_mono; eauto.
Qed.

Theorem candidate_ok_sound A R : candidate_ok A R = true -> cand_prop A R.
Proof.
  unfold candidate_ok. rewrite andb_true_iff. intros [H1 H2]. apply cand_gate_spec. unfold cand_gate.
  rewrite H2, andb_true_r. apply incl_dec_spec. intros t. apply cand_sub_lang; auto.
Qed.

Example cand_example :
  let A := {| rules := [ {| sym := 0; ch := []; par := 0 |}; {| sym := 2; ch := [0%N]; par := 1 |}; {| sym := 2; ch := [1%N]; par := 1 |} ]; finals := [1%N] |} in
  let R := {| rules := [ {| sym := 0; ch := []; par := 0 |}; {| sym := 2; ch := [0%N]; par := 1 |} ]; finals := [1%N] |} in
  candidate_ok A R = true /\ cand_gate A R = true /\ cand_gate A {| rules := []; finals := [] |} = false.
Proof. vm_compute. repeat split; reflexivity. Qed.
