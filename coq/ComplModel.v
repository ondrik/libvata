(* C06 — the choice-function construction of ExplicitDownwardComplementation::Compute as a top-down run relation over
   macro-states, and its exactness: a macro-state P accepts t iff t is over Sigma and no state of P accepts t in A.
   The construction is modelled with the code's data (the vector W, choice functions over it); states of the complement are sets
   of states of A (lists up to set equality). *)
From Coq Require Import List NArith Bool Arith Lia.
Import ListNotations.
From V Require Import ListAux Sem ComplDefs ComplProofs.

(* W: the child tuples of the rules of the macro-state P for symbol f (the code's vector W) *)
Definition Wof (A : ta) (P : list N) (f : N) : list (list N) :=
  map ch (filter (fun r => N.eqb (sym r) f && memN (par r) P) (rules A)).

(* the i-th child macro-state under the choice function c : W -> positions *)
Fixpoint pick (W : list (list N)) (c : list nat) (i : nat) : list N :=
  match W, c with
  | w :: W', j :: c' => if Nat.eqb j i then nth i w 0%N :: pick W' c' i else pick W' c' i
  | _, _ => []
  end.

Definition dflt : tree := Node 0 [].

(* one rule  f(P_1, ..., P_k) -> P  per choice function; for W = [] the single (empty) choice gives f(0,..,0) -> P,
   and for k = 0 a choice exists only if W = [] (the leaf rule) *)
Inductive crun (S : sigma) (A : ta) : tree -> list N -> Prop :=
| crun_node f ts P c :
    In (f, length ts) S ->
    length c = length (Wof A P f) ->
    Forall (fun j => j < length ts) c ->
    (forall i, i < length ts -> crun S A (nth i ts dflt) (pick (Wof A P f) c i)) ->
    crun S A (Node f ts) P.

Definition sigma_fun (S : sigma) := forall f k k', In (f, k) S -> In (f, k') S -> k = k'.

Lemma pick_intro (Q : list N -> nat -> Prop) W c : Forall2 Q W c -> forall w, In w W ->
  exists j', Q w j' /\ In (nth j' w 0%N) (pick W c j').
Proof.
  intros F. induction F as [|w0 j0 W c H F IH]; intros w Hin; [destruct Hin|].
  destruct Hin as [<-|Hin].
  - exists j0. split; auto. simpl. rewrite Nat.eqb_refl. left; auto.
  - destruct (IH w Hin) as [j' [HQ Hp]]. exists j'. split; auto. simpl. destruct (Nat.eqb j0 j'); [right|]; auto.
Qed.

Lemma pick_elim (Q : list N -> nat -> Prop) W c i x : Forall2 Q W c -> In x (pick W c i) -> exists w, In w W /\ Q w i /\ x = nth i w 0%N.
Proof.
  intros F. induction F as [|w0 j0 W c H F IH]; simpl; intros Hx; [destruct Hx|].
  destruct (Nat.eqb_spec j0 i) as [E|NE].
  - destruct Hx as [<-|Hx]; [exists w0; subst; auto|]. destruct (IH Hx) as [w [Hw [HQ E2]]]. exists w; auto.
  - destruct (IH Hx) as [w [Hw [HQ E2]]]. exists w; auto.
Qed.

Lemma Wof_in A P f w : In w (Wof A P f) <-> exists r, In r (rules A) /\ sym r = f /\ In (par r) P /\ ch r = w.
Proof.
  unfold Wof. rewrite in_map_iff. split.
  - intros [r [E H]]. apply filter_In in H as [Hr H]. apply andb_true_iff in H as [H1 H2]. apply N.eqb_eq in H1. apply memN_In in H2. exists r; auto.
  - intros [r [Hr [Hs [Hp E]]]]. exists r. split; auto. apply filter_In. split; auto. rewrite Hs, N.eqb_refl. simpl. apply memN_In; auto.
Qed.


Lemma not_Forall2_pos A ts : forall qs, length ts = length qs -> ~ Forall2 (reach A) ts qs ->
  exists i, i < length ts /\ ~ reach A (nth i ts dflt) (nth i qs 0%N).
Proof.
  induction ts as [|t ts IH]; intros [|q qs] E H; try discriminate.
  - destruct H. constructor.
  - destruct (reach_dec A t q) as [R|NR].
    + destruct (IH qs) as (i & Hi & Hn); [injection E; auto | intros F; apply H; constructor; auto|].
      exists (S i). split; [apply (proj1 (Nat.succ_lt_mono _ _) Hi) | exact Hn].
    + exists 0. split; [apply Nat.lt_0_succ | exact NR].
Qed.

Theorem macro_spec S A : ranked S A = true -> sigma_fun S ->
  forall t P, crun S A t P <-> (over S t /\ forall q, In q P -> ~ reach A t q).
Proof.
  intros HR HF. induction t as [f ts IH] using tree_ind'. intros P.
  assert (IHi : forall i, i < length ts -> forall Q,
            crun S A (nth i ts dflt) Q <-> over S (nth i ts dflt) /\ forall q, In q Q -> ~ reach A (nth i ts dflt) q).
  { intros i Hi. apply (proj1 (Forall_forall _ _) IH), nth_In, Hi. }
  clear IH. set (W := Wof A P f). split.
  - intros Hc. inversion Hc as [f' ts' P' c Hin Hlen Hlt Hch]; subst. fold W in Hlen, Hch. split.
    + constructor; [apply in_sigma_spec, Hin|]. apply Forall_forall. intros t Ht.
      destruct (In_nth ts t dflt Ht) as (i & Hi & <-). apply (IHi i Hi (pick W c i)), Hch, Hi.
    + (* the position chosen for the tuple of a rule is one where the rule fails *)
      intros q Hq R. apply reach_inv in R as (r & Hr & Hs & F & <-).
      destruct (pick_intro _ W c (Forall2_const_r _ W c Hlen Hlt) (ch r)) as (j & Hj & Hp); [apply Wof_in; eauto|].
      destruct (proj1 (IHi j Hj _) (Hch j Hj)) as [_ Hn]. apply (Hn _ Hp), Forall2_nth; auto.
  - intros [Ho Hn]. inversion Ho as [f' ts' Hin HFo]; subst. apply in_sigma_spec in Hin.
    (* every tuple of W fails at some position, since its rule does not apply *)
    destruct (Forall2_choose (fun j w => j < length ts /\ ~ reach A (nth j ts dflt) (nth j w 0%N)) W) as [c Hc%Forall2_flip].
    { intros w Hw. apply Wof_in in Hw as (r & Hr & Hs & Hp & <-). apply not_Forall2_pos.
      - apply (HF f); auto. rewrite <- Hs. apply in_sigma_spec, (proj1 (forallb_forall _ _) HR r Hr).
      - intros F2. apply (Hn (par r) Hp). rewrite <- Hs. constructor; auto. }
    apply (crun_node S A f ts P c); auto.
    + symmetry. apply (Forall2_length _ _ _ Hc).
    + apply Forall_forall. intros j Hj. destruct (Forall2_In_r _ _ _ _ Hc Hj) as (w & _ & H & _). exact H.
    + intros i Hi. apply (IHi i Hi). split.
      * apply (proj1 (Forall_forall _ _) HFo), nth_In, Hi.
      * intros q Hq. destruct (pick_elim _ W c i q Hc Hq) as (w & _ & [_ Hnr] & ->). exact Hnr.
Qed.

(* the complement's root macro-state is the set of final states of A *)
Theorem compl_exact S A : ranked S A = true -> sigma_fun S ->
  forall t, crun S A t (finals A) <-> (over S t /\ ~ accepts A t).
Proof.
  intros HR HF t. rewrite (macro_spec S A HR HF). split; intros [Ho H]; split; auto.
  - intros [q [Hq R]]. apply (H q Hq R).
  - intros q Hq R. apply H. exists q; auto.
Qed.

(* macro-states are sets: the run relation only depends on the set of states (the code sorts and hashes them) *)
Lemma Wof_set_ext A P P' f : (forall q, In q P <-> In q P') -> Wof A P f = Wof A P' f.
Proof.
  intros E. unfold Wof. f_equal. apply filter_ext. intros r. f_equal.
  apply eq_true_iff_eq. rewrite !memN_In. apply E.
Qed.

Lemma crun_set_incl S A t P P' : (forall q, In q P <-> In q P') -> crun S A t P -> crun S A t P'.
Proof.
  intros E H. destruct H as [f ts P c Hin Hlen Hlt Hch]. rewrite (Wof_set_ext A P P' f E) in Hlen, Hch.
  apply (crun_node S A f ts P' c); auto.
Qed.

Theorem crun_set_ext S A t P P' : (forall q, In q P <-> In q P') -> (crun S A t P <-> crun S A t P').
Proof. intros E. split; apply crun_set_incl; intros q; [|symmetry]; apply E. Qed.

Example compl_example :
  let S := [(0%N, 0); (1%N, 1)] in
  let A := {| rules := [ {| sym := 0; ch := []; par := 0 |}; {| sym := 1; ch := [0%N]; par := 1 |}; {| sym := 1; ch := [1%N]; par := 0 |} ]; finals := [0%N] |} in
  ranked S A = true /\ crun S A (Node 1 [Node 0 []]) (finals A).
Proof.
  split; [reflexivity|]. simpl.
  apply (crun_node _ _ 1%N [Node 0%N []] [0%N] [0]); simpl; auto.
  intros i Hi. assert (i = 0) by lia. subst. simpl.
  apply (crun_node _ _ 0%N [] [1%N] []); simpl; auto. intros; lia.
Qed.
