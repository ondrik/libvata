(* C11 — Explicit automata are values: copies isolated, results depend only on operands.
   Part 1 (this block): the value model — a pool of handles; every step is a function of the values of the handles it
   names.  [written st] are the handles a step writes; everything else is untouched (frame), which gives the
   property's clauses as corollaries.  Part 2: the copy-on-write heap model of ExplicitTreeAutCore refines the value
   model for all histories (CowProofs.v).  Nothing but statements closed by [exact]. *)
From Coq Require Import List NArith Bool.
Import ListNotations.
From V Require Import Sem Prod MemoTable.
From V Require Lang.
From V Require Import StoreDefs StoreProofs ReindexDefs ReindexProofs ValueDefs ValueProofs CowDefs CowProofs.

(* a step changes nothing but the handles it writes; so does any history *)
Theorem C11_frame : forall V (l : list (vstep V)) (p : pool V) x,
  (forall st, In st l -> ~ In x (written st)) -> vrun p l x = p x.
Proof. exact frame. Qed.
(* after a copy / assignment, later modifications (adding rules, changing finals, clearing, destroying) of the source or of
   any third object are invisible through the copy, and vice versa *)
Theorem C11_copy_isolated : forall V (p : pool V) h s v l, p s = Some v -> h <> s ->
  (forall st, In st l -> ~ In h (written st)) -> vrun (vstep_run p (VCopy h s)) l h = Some v.
Proof. exact copy_isolated. Qed.
Theorem C11_copy_isolated_src : forall V (p : pool V) h s v l, p s = Some v -> h <> s ->
  (forall st, In st l -> ~ In s (written st)) -> vrun (vstep_run p (VCopy h s)) l s = Some v.
Proof. exact copy_isolated_src. Qed.
Theorem C11_move_transfers : forall V (p : pool V) h s v l, p s = Some v -> h <> s ->
  (forall st, In st l -> ~ In h (written st)) -> vrun (vstep_run p (VMove h s)) l h = Some v /\ vstep_run p (VMove h s) s = None.
Proof. exact move_transfers. Qed.
(* automata returned by operations stay unchanged when their operands are modified or destroyed afterwards *)
Theorem C11_result_independent_of_operand_fate1 : forall V (p : pool V) h f s v l, p s = Some v ->
  (forall st, In st l -> ~ In h (written st)) -> vrun (vstep_run p (VLib1 h f s)) l h = Some (f v).
Proof. exact result_independent_of_operand_fate1. Qed.
Theorem C11_result_independent_of_operand_fate2 : forall V (p : pool V) h f s1 s2 v1 v2 l, p s1 = Some v1 -> p s2 = Some v2 ->
  (forall st, In st l -> ~ In h (written st)) -> vrun (vstep_run p (VLib2 h f s1 s2)) l h = Some (f v1 v2).
Proof. exact result_independent_of_operand_fate2. Qed.
Theorem C11_operand_unchanged1 : forall V (p : pool V) h f s, h <> s -> vstep_run p (VLib1 h f s) s = p s.
Proof. exact operand_unchanged1. Qed.
Theorem C11_operand_unchanged2 : forall V (p : pool V) h f s1 s2, h <> s1 -> h <> s2 ->
  vstep_run p (VLib2 h f s1 s2) s1 = p s1 /\ vstep_run p (VLib2 h f s1 s2) s2 = p s2.
Proof. exact operand_unchanged2. Qed.
(* the outcome depends only on the operands' values, not on the history that produced them *)
Theorem C11_op_deterministic1 : forall V (p1 p2 : pool V) l1 l2 h1 h2 f s1 s2 v,
  vrun p1 l1 s1 = Some v -> vrun p2 l2 s2 = Some v ->
  vstep_run (vrun p1 l1) (VLib1 h1 f s1) h1 = vstep_run (vrun p2 l2) (VLib1 h2 f s2) h2.
Proof. exact op_deterministic1. Qed.
Theorem C11_op_deterministic2 : forall V (p1 p2 : pool V) l1 l2 h1 h2 f a1 b1 a2 b2 va vb,
  vrun p1 l1 a1 = Some va -> vrun p1 l1 b1 = Some vb -> vrun p2 l2 a2 = Some va -> vrun p2 l2 b2 = Some vb ->
  vstep_run (vrun p1 l1) (VLib2 h1 f a1 b1) h1 = vstep_run (vrun p2 l2) (VLib2 h2 f a2 b2) h2.
Proof. exact op_deterministic2. Qed.
(* the flat tree values used by the correspondence are the nested store of C12, flattened *)
Theorem C11_flat_step : forall a o, wf a -> ta_set_eq (flat (step a o)) (t_step o (flat a)) = true.
Proof. exact flat_step. Qed.
(* the comparisons evaluated on libvata's observations decide set equality / image under the reported maps *)
Theorem C11_t_obs_eq : forall m o, t_obs_eq m o = true <->
  (forall r, In r (rules m) <-> In r (rules o)) /\ (forall q, In q (finals m) <-> In q (finals o)).
Proof. exact t_obs_eq_spec. Qed.
Theorem C11_w_obs_eq : forall m o, w_obs_eq m o = true <->
  (forall s, In s (wstartset m) <-> In s (wstartset o)) /\ (forall x, In x (wsyms m) <-> In x (wsyms o)) /\
  (forall q, In q (wfinals m) <-> In q (wfinals o)) /\ (forall e, In e (wedges m) <-> In e (wedges o)).
Proof. exact w_obs_eq_spec. Qed.
Theorem C11_t_union_gate : forall mA mB A B R, t_union_gate mA mB A B R = true ->
  (forall r, In r (rules R) <-> (exists r0, In r0 (rules A) /\ r = Lang.map_rule (app_map mA 0) r0) \/
                                (exists r0, In r0 (rules B) /\ r = Lang.map_rule (app_map mB 0) r0)) /\
  (forall q, In q (finals R) <-> (exists q0, In q0 (finals A) /\ q = app_map mA 0 q0) \/
                                 (exists q0, In q0 (finals B) /\ q = app_map mB 0 q0)).
Proof. exact t_union_gate_sound. Qed.
Theorem C11_t_image_gate : forall h A R, t_image_gate h A R = true <->
  (forall r, In r (rules R) <-> exists r0, In r0 (rules A) /\ r = Lang.map_rule h r0) /\
  (forall q, In q (finals R) <-> exists q0, In q0 (finals A) /\ q = h q0).
Proof. exact t_image_gate_spec. Qed.

(* ---------- Part 2: the copy-on-write heap of ExplicitTreeAutCore (CowDefs.v) refines the value model ----------
   [crun l] runs a history on the heap (use counts derived from the live referrers; uniqueClusterMap / uniqueCluster /
   uniqueTuplePtrSet clone exactly when the use count is not 1; Clear clears in place only when unique; results share the
   whole map or single clusters), [vrun_abs l] runs the same history on values (the nested store of C12). *)
Theorem C11_cow_refines_value : forall l h,
  match get h (hnd (crun l)), vrun_abs l h with
  | Some (fs, m), Some a => fs = fin a /\ forall q x, clookup (crun l) m q x = slookup (st a) q x
  | None, None => True
  | _, _ => False
  end.
Proof. exact cow_refines_value. Qed.
(* every single step of the heap model is the corresponding value step *)
Theorem C11_cow_step_refines : forall c p stp, Rel c p -> Rel (cstep_run c stp) (vstep_run p (abs_step stp)).
Proof. exact step_refines. Qed.
(* the rules iterated in the value are exactly those found through the handle on the heap *)
Theorem C11_cow_reads_rules : forall l h a, vrun_abs l h = Some a -> forall r, In r (iter (st a)) <-> cow_contains (crun l) h r = true.
Proof. exact cow_reads_rules. Qed.
(* the property's clauses on the heap model: copies are isolated in both directions, results sharing storage with an
   operand keep their value whatever later happens to the operand *)
Theorem C11_cow_copy_isolated : forall l1 l2 h s a, h <> s -> vrun_abs l1 s = Some a ->
  (forall st, In st l2 -> ~ In h (written (abs_step st))) -> reads_as (crun (l1 ++ CCopy h s :: l2)) h a.
Proof. exact cow_copy_isolated. Qed.
Theorem C11_cow_copy_isolated_src : forall l1 l2 h s a, h <> s -> vrun_abs l1 s = Some a ->
  (forall st, In st l2 -> ~ In s (written (abs_step st))) -> reads_as (crun (l1 ++ CCopy h s :: l2)) s a.
Proof. exact cow_copy_isolated_src. Qed.
Theorem C11_cow_result_independent_clusters : forall l1 l2 h s keep fs a, vrun_abs l1 s = Some a ->
  (forall st, In st l2 -> ~ In h (written (abs_step st))) ->
  reads_as (crun (l1 ++ CShareClusters h s keep fs :: l2)) h {| st := keep_entries keep (st a); fin := fs |}.
Proof. exact cow_result_independent_clusters. Qed.
Theorem C11_cow_result_independent_map : forall l1 l2 h s fs a, vrun_abs l1 s = Some a ->
  (forall st, In st l2 -> ~ In h (written (abs_step st))) ->
  reads_as (crun (l1 ++ CShareMap h s fs :: l2)) h {| st := st a; fin := fs |}.
Proof. exact cow_result_independent_map. Qed.
(* a use count of 1 really means exclusive ownership among the live referrers (what makes the in-place writes safe) *)
Theorem C11_unique_cluster_exclusive : forall c h fs m q cl, cl_unique c cl = true -> live c h fs m -> get q (mget c m) = Some cl ->
  forall h2 fs2 m2 q2, live c h2 fs2 m2 -> get q2 (mget c m2) = Some cl -> m2 = m /\ q2 = q.
Proof. exact cl_excl. Qed.
Theorem C11_unique_tuple_set_exclusive : forall c h fs m q cl a ts, ts_unique c ts = true -> live c h fs m ->
  get q (mget c m) = Some cl -> get a (cget c cl) = Some ts ->
  forall h2 fs2 m2 q2 cl2 a2, live c h2 fs2 m2 -> get q2 (mget c m2) = Some cl2 -> get a2 (cget c cl2) = Some ts -> cl2 = cl /\ a2 = a.
Proof. exact ts_excl. Qed.

(* (A) a memo kept in the storage that copies share (a fact computed from the rules: reachability, a simulation relation, a derived view):
   with MemoTable.Copy sharing the table, MemoTable.Add detaching, appending and DROPPING the memo, and MemoTable.Query answering from the memo or filling it, every answer
   of every operation sequence is the function F of the handle's value — for any F *)
Theorem C11_memo_sound : forall (F : list N -> bool) ops, MemoTable.no_raw ops -> snd (MemoTable.run F MemoTable.init_st ops) = snd (MemoTable.vrun F (cons nil nil) ops).
Proof. exact MemoTable.memo_sound_init. Qed.
Theorem C11_memo_sound_from : forall (F : list N -> bool) ops s v, MemoTable.Rep F s v -> MemoTable.no_raw ops -> snd (MemoTable.run F s ops) = snd (MemoTable.vrun F v ops).
Proof. exact MemoTable.memo_sound. Qed.
(* an insertion path that keeps the memo (a result assembled from an operand's table) makes answers depend on the history: refuted *)
Theorem C11_memo_raw_refuted :
  let ops := cons (MemoTable.Query 0) (cons (MemoTable.AddRaw 0 7%N) (cons (MemoTable.Query 0) nil)) in
  snd (MemoTable.run MemoTable.is_nil MemoTable.init_st ops) = cons (Some true) (cons None (cons (Some true) nil)) /\
  snd (MemoTable.vrun MemoTable.is_nil (cons nil nil) ops) = cons (Some true) (cons None (cons (Some false) nil)).
Proof. exact MemoTable.memo_raw_refuted. Qed.
Example C11_memo_example :
  snd (MemoTable.run MemoTable.is_nil MemoTable.init_st (cons (MemoTable.Query 0) (cons (MemoTable.Copy 0) (cons (MemoTable.Add 0 7%N) (cons (MemoTable.Query 0) (cons (MemoTable.Query 1) nil))))))
  = cons (Some true) (cons None (cons None (cons (Some false) (cons (Some true) nil)))).
Proof. exact MemoTable.memo_add_example. Qed.

Print Assumptions C11_frame.
Print Assumptions C11_copy_isolated.
Print Assumptions C11_copy_isolated_src.
Print Assumptions C11_move_transfers.
Print Assumptions C11_result_independent_of_operand_fate1.
Print Assumptions C11_result_independent_of_operand_fate2.
Print Assumptions C11_operand_unchanged1.
Print Assumptions C11_operand_unchanged2.
Print Assumptions C11_op_deterministic1.
Print Assumptions C11_op_deterministic2.
Print Assumptions C11_flat_step.
Print Assumptions C11_t_obs_eq.
Print Assumptions C11_w_obs_eq.
Print Assumptions C11_t_union_gate.
Print Assumptions C11_t_image_gate.
Print Assumptions C11_cow_refines_value.
Print Assumptions C11_cow_step_refines.
Print Assumptions C11_cow_reads_rules.
Print Assumptions C11_cow_copy_isolated.
Print Assumptions C11_cow_copy_isolated_src.
Print Assumptions C11_cow_result_independent_clusters.
Print Assumptions C11_cow_result_independent_map.
Print Assumptions C11_unique_cluster_exclusive.
Print Assumptions C11_unique_tuple_set_exclusive.
Print Assumptions C11_memo_sound.
Print Assumptions C11_memo_sound_from.
Print Assumptions C11_memo_raw_refuted.
Print Assumptions C11_memo_example.
