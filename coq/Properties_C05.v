(* C05 — Reduce preserves the language and never grows the automaton. Statements only. *)
From Coq Require Import List NArith Bool Arith.
From V Require Import Sem Prod Incl TrimDefs TrimProofs Lang BinopDefs ReduceDefs ReduceProofs ReduceModel ReduceStale.

(* quotient by any representative map that stays inside a downward simulation in both directions, then pruning:
   same language (for every automaton, every such relation, every such choice of representatives) *)
Theorem C05_reduce_lang : forall A D rep, is_down_simb A D = true -> valid_repb A D rep = true ->
  forall t, accepts (reduce_with rep A) t <-> accepts A t.
Proof. exact reduce_lang. Qed.
Theorem C05_reduce_states_le : forall rep A, nstates (reduce_with rep A) <= nstates A.
Proof. exact reduce_states_le. Qed.
Theorem C05_reduce_rules_le : forall rep A, nrules (reduce_with rep A) <= nrules A.
Proof. exact reduce_rules_le. Qed.
Theorem C05_reduce_onto : forall rep A s, In s (states (reduce_with rep A)) -> exists q, In q (states A) /\ s = rep q.
Proof. exact reduce_onto. Qed.
(* a relation accepted by the checker is a downward simulation; simulation transfers runs *)
Theorem C05_sim_reach : forall A D, is_down_simb A D = true -> forall t q, reach A t q -> forall r, In (q, r) D -> reach A t r.
Proof. exact is_down_simb_reach. Qed.
(* the gate evaluated on libvata's result decides the property *)
Theorem C05_gate : forall A R, reduce_gate A R = true <-> reduce_prop A R.
Proof. exact reduce_gate_spec. Qed.

(* the complete functional model: simulation computed by refinement, canonical representative per class, collapse, prune.
   The computed relation is a downward simulation and reflexive, the canonical representatives are valid, hence — with no
   hypothesis left — Reduce keeps the language, and the model passes the gate used on libvata's result *)
Theorem C05_computed_relation_is_simulation : forall A, is_down_simb A (down_sim_rel A) = true.
Proof. exact down_sim_rel_is_sim. Qed.
Theorem C05_canonical_representatives_valid : forall A, valid_repb A (down_sim_rel A) (canon_rep A) = true.
Proof. exact canon_rep_valid. Qed.
Theorem C05_reduce_model_lang : forall A t, accepts (reduce_model A) t <-> accepts A t.
Proof. exact reduce_model_lang. Qed.
Theorem C05_reduce_model_passes_gate : forall A, reduce_gate A (reduce_model A) = true.
Proof. exact reduce_model_gate. Qed.

(* a relation computed for the automaton before an in-place extension (no new state) is not valid afterwards: a Reduce that re-uses it
   changes the language; with the relation of the automaton actually reduced the language is kept *)
Theorem C05_stale_relation_refuted : (forall q, In q (states stA') <-> In q (states stA)) /\ canon_rep stA 10%N = canon_rep stA 20%N /\
  ~ (forall t, accepts (reduce_with (canon_rep stA) stA') t <-> accepts stA' t).
Proof. exact reduce_stale_relation_refuted. Qed.

Print Assumptions C05_reduce_lang.
Print Assumptions C05_computed_relation_is_simulation.
Print Assumptions C05_canonical_representatives_valid.
Print Assumptions C05_reduce_model_lang.
Print Assumptions C05_reduce_model_passes_gate.
Print Assumptions C05_reduce_states_le.
Print Assumptions C05_reduce_rules_le.
Print Assumptions C05_reduce_onto.
Print Assumptions C05_sim_reach.
Print Assumptions C05_gate.
Print Assumptions C05_stale_relation_refuted.
