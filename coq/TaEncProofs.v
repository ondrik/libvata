(* C04 — the two LTS encodings of src/explicit_tree_transl.hh are correct: the greatest LTS simulation of the
   encoded system, read back through the state index, is the greatest downward / upward simulation. *)
From Coq Require Import List NArith Bool Arith Lia.
Import ListNotations.
From V Require Import ListAux Sem LtsSimDefs LtsSimProofs TaSimDefs TaSimProofs TaEncDefs.

Lemma forallb2_spec {T} (f : T -> T -> bool) l : forallb (fun x => forallb (f x) l) l = true -> forall x y, In x l -> In y l -> f x y = true.
Proof. intros H x y Hx Hy. rewrite forallb_forall in H. specialize (H x Hx). rewrite forallb_forall in H. auto. Qed.
Lemma inj_b_spec {T} (f : T -> N) (g : T -> T -> bool) l :
  forallb (fun x => forallb (fun y => negb (N.eqb (f x) (f y)) || g x y) l) l = true ->
  forall x y, In x l -> In y l -> f x = f y -> g x y = true.
Proof. intros H x y Hx Hy E. apply (forallb2_spec _ _ H x y Hx) in Hy. rewrite E, N.eqb_refl in Hy. exact Hy. Qed.

Definition ranked (A : ta) : Prop :=
  forall p p', In p (rules A) -> In p' (rules A) -> sym p = sym p' -> length (ch p) = length (ch p').
Lemma ranked_ok_sound A : ranked_ok A = true -> ranked A.
Proof. intros H p p' Hp Hp' E. pose proof (forallb2_spec _ _ H p p' Hp Hp') as K. cbv beta in K.
  rewrite E, N.eqb_refl in K. apply Nat.eqb_eq, K. Qed.

(* The shape of both correctness proofs.  D is the automaton's greatest simulation on the states below n, SL the engine's
   result on the encoded system, idx the state index.  It is enough to find a relation S on nodes that the engine admits
   and that holds of the images of D-related states, and to show that SL read back through idx is an automaton simulation. *)
Definition read_back (n : nat) (idx : N -> N) (S : relN) : relN :=
  fun q r => (q < N.of_nat n)%N /\ (r < N.of_nat n)%N /\ S (idx q) (idx r).

Lemma encoding_correct (Phi : relN -> Prop) n idx D SL S :
  is_greatest (fun R => within n R /\ Phi R) D ->
  sub_rel S SL -> sub_rel (map_rel idx D) S -> Phi (read_back n idx SL) ->
  forall q r, (q < N.of_nat n)%N -> (r < N.of_nat n)%N -> (D q r <-> SL (idx q) (idx r)).
Proof.
  intros [_ HD] HL Hi Hb q r Hq Hr. split; intros H.
  - apply HL, Hi. exists q, r. auto.
  - apply (HD (read_back n idx SL)); [split; [intros x y [? [? _]]; auto | exact Hb] | split; auto].
Qed.

Lemma tuple_edges_In {T} (f : T -> N) d nsym t : forall cs s e, In e (tuple_edges nsym t s (map f cs)) <->
  exists i, i < length cs /\ e = (t, (nsym + (s + N.of_nat i))%N, f (nth i cs d)).
Proof.
  assert (Hs : forall s i, (N.succ s + N.of_nat i = s + N.of_nat (S i))%N) by (intros; lia).
  induction cs as [|c cs IH]; intros s e; simpl.
  - split; [tauto | intros [i [H _]]; lia].
  - rewrite IH. split.
    + intros [<-|[i [Hi ->]]]; [exists 0 | exists (S i)]; (split; [lia|]); [rewrite N.add_0_r | rewrite <- Hs]; reflexivity.
    + intros [[|i] [Hi ->]]; [left; rewrite N.add_0_r; reflexivity | right]. exists i. rewrite Hs. split; [lia | reflexivity].
Qed.

Definition unary (p : rule) : Prop := length (ch p) = 1.

Lemma unaryb_spec p : unaryb p = true <-> unary p.
Proof. apply Nat.eqb_eq. Qed.
Lemma unaryb_false p : ~ unary p -> unaryb p = false.
Proof. apply Nat.eqb_neq. Qed.

(* where the edge from a rule's parent leads: to the child itself for a unary rule (inlined), else to the tuple node *)
Definition d_head (X : dix) (p : rule) : N := match ch p with [c] => d_idx X c | cs => d_tidx X cs end.

Lemma heads_cases X p p' : length (ch p) = length (ch p') ->
  (exists c c', ch p = [c] /\ ch p' = [c'] /\ d_head X p = d_idx X c /\ d_head X p' = d_idx X c') \/
  (~ unary p /\ ~ unary p' /\ d_head X p = d_tidx X (ch p) /\ d_head X p' = d_tidx X (ch p')).
Proof.
  unfold d_head, unary. destruct (ch p) as [|c [|]], (ch p') as [|c' [|]]; simpl; intros E; try discriminate E.
  - right. repeat split; discriminate.
  - left. exists c, c'. auto.
  - right. repeat split; discriminate.
Qed.

Lemma down_rule_edges_In X p e : In e (down_rule_edges X p) <->
  e = (d_idx X (par p), d_sidx X (sym p), d_head X p) \/
  (~ unary p /\ exists i, i < length (ch p) /\ e = (d_tidx X (ch p), (d_nsym X + N.of_nat i)%N, d_idx X (nth i (ch p) 0%N))).
Proof.
  unfold down_rule_edges, d_head, unary. destruct (ch p) as [|c [|c' cs]].
  - simpl. split; [intros [<-|[]]; auto | intros [->|[_ [i [H _]]]]; [auto | lia]].
  - simpl. split; [intros [<-|[]]; auto | intros [->|[H _]]; tauto].
  - set (l := c :: c' :: cs). cbn [In]. rewrite (tuple_edges_In (d_idx X) 0%N (d_nsym X) (d_tidx X l) l 0%N e). cbn [N.add].
    split; (intros [E|H]; [left; auto | right]); [split; [simpl; lia | exact H] | exact (proj2 H)].
Qed.
Lemma translate_down_In X A e : In e (translate_down X A) <-> exists p, In p (rules A) /\ In e (down_rule_edges X p).
Proof. unfold translate_down. apply in_flat_map. Qed.

(* validity of the indices built by TranslateDownward; N is the number of nodes of the encoded system, the size handed to
   lts_sim_default *)
Record down_ok (X : dix) (A : ta) (n N : nat) : Prop := {
  dk_lt : forall x, (x < N.of_nat n)%N -> (d_idx X x < N.of_nat n)%N;
  dk_inj : forall x y, (x < N.of_nat n)%N -> (y < N.of_nat n)%N -> d_idx X x = d_idx X y -> x = y;
  dk_sinj : forall p p', In p (rules A) -> In p' (rules A) -> d_sidx X (sym p) = d_sidx X (sym p') -> sym p = sym p';
  dk_slt : forall p, In p (rules A) -> (d_sidx X (sym p) < d_nsym X)%N;
  dk_tinj : forall p p', In p (rules A) -> In p' (rules A) -> ~ unary p -> ~ unary p' ->
              d_tidx X (ch p) = d_tidx X (ch p') -> ch p = ch p';
  dk_trng : forall p, In p (rules A) -> ~ unary p -> (N.of_nat n <= d_tidx X (ch p) < N.of_nat N)%N;
  dk_nN : n <= N
}.
Lemma down_ok_b_sound X A n NN : down_ok_b X A n NN = true -> down_ok X A n NN.
Proof.
  unfold down_ok_b. intros [[[[[[H1 H2]%andb_prop H3]%andb_prop H4]%andb_prop H5]%andb_prop H6]%andb_prop H7]%andb_prop.
  rewrite forallb_forall in H1, H4, H6. constructor.
  - intros x Hx. apply N.ltb_lt, H1, seqN_In, Hx.
  - intros x y Hx Hy E. apply N.eqb_eq, (inj_b_spec _ _ _ H2); auto; apply seqN_In; auto.
  - intros p p' Hp Hp' E. apply N.eqb_eq, (inj_b_spec _ _ _ H3); auto.
  - intros p Hp. apply N.ltb_lt, H4, Hp.
  - intros p p' Hp Hp' NU NU' E. apply listN_eqb_eq. pose proof (forallb2_spec _ _ H5 p p' Hp Hp') as H. cbv beta in H.
    rewrite (unaryb_false p NU), (unaryb_false p' NU'), E, N.eqb_refl in H. exact H.
  - intros p Hp NU. specialize (H6 p Hp). rewrite (unaryb_false p NU) in H6.
    apply andb_prop in H6 as [Ha Hb]. split; [apply N.leb_le, Ha | apply N.ltb_lt, Hb].
  - apply Nat.leb_le; auto.
Qed.

Section Down.
Variables (X : dix) (A : ta) (n NN : nat).
Hypothesis Hbelow : states_below A n.
Hypothesis Hranked : ranked A.
Hypothesis Hok : down_ok X A n NN.
Let L := translate_down X A.
Let idx := d_idx X.

Lemma down_rule_edge p : In p (rules A) -> In (idx (par p), d_sidx X (sym p), d_head X p) L.
Proof. intros Hp. apply translate_down_In. exists p. split; auto. apply down_rule_edges_In. auto. Qed.
Lemma down_tuple_edge p i : In p (rules A) -> ~ unary p -> i < length (ch p) ->
  In (d_tidx X (ch p), (d_nsym X + N.of_nat i)%N, idx (nth i (ch p) 0%N)) L.
Proof. intros Hp NU Hi. apply translate_down_In. exists p. split; auto. apply down_rule_edges_In. right. eauto. Qed.

Lemma down_from_state r a y : (r < N.of_nat n)%N -> In (idx r, a, y) L ->
  exists p, In p (rules A) /\ par p = r /\ a = d_sidx X (sym p) /\ y = d_head X p.
Proof.
  intros Hr He. apply translate_down_In in He as [p [Hp He]]. apply down_rule_edges_In in He.
  destruct He as [E|[NU [i [Hi E]]]]; injection E as Ex -> ->.
  - exists p. repeat split; auto. symmetry. apply (dk_inj _ _ _ _ Hok); auto. apply (below_par A n p Hbelow Hp).
  - exfalso. pose proof (dk_trng _ _ _ _ Hok p Hp NU). pose proof (dk_lt _ _ _ _ Hok r Hr). unfold idx in *. lia.
Qed.

Lemma down_from_tuple p a y : In p (rules A) -> ~ unary p -> In (d_tidx X (ch p), a, y) L ->
  exists i, i < length (ch p) /\ a = (d_nsym X + N.of_nat i)%N /\ y = idx (nth i (ch p) 0%N).
Proof.
  intros Hp NU He. apply translate_down_In in He as [p' [Hp' He]]. apply down_rule_edges_In in He.
  destruct He as [E|[NU' [i [Hi E]]]]; injection E as Ex -> ->.
  - exfalso. pose proof (dk_trng _ _ _ _ Hok p Hp NU). pose proof (dk_lt _ _ _ _ Hok _ (below_par A n p' Hbelow Hp')). lia.
  - exists i. rewrite (dk_tinj _ _ _ _ Hok p p'); auto.
Qed.

Let SL := rel_of (lts_sim_default L NN).
Let D := rel_of (down_sim A n).

Lemma down_SL_sim : simulation L SL.
Proof. apply lts_sim_default_greatest. Qed.

Lemma down_back_heads p p' : In p (rules A) -> In p' (rules A) -> length (ch p) = length (ch p') ->
  SL (d_head X p) (d_head X p') -> Forall2 (read_back n idx SL) (ch p) (ch p').
Proof.
  intros Hp Hp' EL HS. apply (Forall2_impl_In (fun c c' => SL (idx c) (idx c'))).
  { intros c c' Hc Hc' H. split; [apply (below_ch A n p) | split; [apply (below_ch A n p') | ]]; auto. }
  destruct (heads_cases X p p' EL) as [[c [c' [Hc [Hc' [E E']]]]]|[NU [NU' [E E']]]]; rewrite E, E' in HS.
  - rewrite Hc, Hc'. auto.
  - (* tuple nodes: follow each position edge; its label fixes the position of the answer *)
    apply (Forall2_of_nth _ _ _ 0%N 0%N EL). intros i Hi. rewrite <- EL in Hi.
    destruct (down_SL_sim _ _ HS _ _ (down_tuple_edge p i Hp NU Hi)) as [z [Ht HSz]].
    apply down_from_tuple in Ht as [j [Hj [Ej ->]]]; auto.
    assert (j = i) by lia. subst j. exact HSz.
Qed.

Lemma down_from_lts : down_simulation A (read_back n idx SL).
Proof.
  intros q r [Hq [Hr HS]] p Hp <-.
  destruct (down_SL_sim _ _ HS _ _ (down_rule_edge p Hp)) as [y [He HS']].
  apply down_from_state in He as [p' [Hp' [Epar [Esym ->]]]]; auto.
  assert (Es : sym p' = sym p) by (symmetry; apply (dk_sinj _ _ _ _ Hok); auto).
  exists p'. repeat split; auto. exact (down_back_heads p p' Hp Hp' (Hranked p p' Hp Hp' (eq_sym Es)) HS').
Qed.

(* the relation on nodes: images of related states, and tuple nodes of rules with pairwise related children *)
Definition S_down : relN := fun x y => map_rel idx D x y \/
  (exists p p', In p (rules A) /\ In p' (rules A) /\ ~ unary p /\ ~ unary p' /\ Forall2 D (ch p) (ch p') /\
                x = d_tidx X (ch p) /\ y = d_tidx X (ch p')).

Lemma down_D_props : within n D /\ down_simulation A D.
Proof. apply down_sim_greatest. Qed.

Lemma S_down_within : within NN S_down.
Proof.
  pose proof (dk_nN _ _ _ _ Hok).
  intros x y [[q [r [HD [-> ->]]]]|[p [p' [Hp [Hp' [NU [NU' [_ [-> ->]]]]]]]]].
  - destruct (proj1 down_D_props _ _ HD) as [Hq Hr]. pose proof (dk_lt _ _ _ _ Hok _ Hq). pose proof (dk_lt _ _ _ _ Hok _ Hr). unfold idx. lia.
  - pose proof (dk_trng _ _ _ _ Hok p Hp NU). pose proof (dk_trng _ _ _ _ Hok p' Hp' NU'). lia.
Qed.

Lemma S_down_heads p p' : In p (rules A) -> In p' (rules A) -> Forall2 D (ch p) (ch p') -> S_down (d_head X p) (d_head X p').
Proof.
  intros Hp Hp' F.
  destruct (heads_cases X p p' (Forall2_length _ _ _ F)) as [[c [c' [Hc [Hc' [-> ->]]]]]|[NU [NU' [-> ->]]]].
  - rewrite Hc, Hc' in F. inversion F; subst. left. exists c, c'. auto.
  - right. exists p, p'. repeat split; auto.
Qed.

Lemma S_down_sim : simulation L S_down.
Proof.
  destruct down_D_props as [Hw Hsim].
  intros x y [[q [r [HD [-> ->]]]]|[p [p' [Hp [Hp' [NU [NU' [F [-> ->]]]]]]]]] a x' He.
  - apply down_from_state in He as [p [Hp [Epar [-> ->]]]]; [|apply (Hw _ _ HD)].
    destruct (Hsim _ _ HD p Hp Epar) as [p' [Hp' [<- [<- F]]]].
    exists (d_head X p'). split; [apply down_rule_edge | apply S_down_heads]; auto.
  - apply down_from_tuple in He as [i [Hi [-> ->]]]; auto.
    exists (idx (nth i (ch p') 0%N)). split; [apply down_tuple_edge; auto; rewrite <- (Forall2_length _ _ _ F); auto|].
    left. exists (nth i (ch p) 0%N), (nth i (ch p') 0%N). split; auto. apply Forall2_nth; auto.
Qed.

Theorem encode_down_correct q r : (q < N.of_nat n)%N -> (r < N.of_nat n)%N ->
  (In (q, r) (down_sim A n) <-> In (idx q, idx r) (lts_sim_default L NN)).
Proof.
  revert q r. apply (encoding_correct (down_simulation A) n idx D SL S_down (down_sim_greatest A n)).
  - apply lts_sim_default_greatest. split; [apply S_down_within | apply S_down_sim].
  - intros x y H. left. exact H.
  - apply down_from_lts.
Qed.
End Down.

(* the ranked-alphabet hypothesis is necessary: with a symbol used with arities 1 and 2 the inlining of unary rules lets
   a unary rule be answered by a binary one (a state without rules is simulated by a tuple node) *)
Theorem encode_down_unranked_refuted :
  exists X A n NN, states_below A n /\ down_ok X A n NN /\
    In (d_idx X 0%N, d_idx X 1%N) (lts_sim_default (translate_down X A) NN) /\ ~ In (0%N, 1%N) (down_sim A n).
Proof.
  exists {| d_idx := fun x => x; d_sidx := fun _ => 0%N; d_nsym := 1%N; d_tidx := fun _ => 3%N |},
    {| rules := [ {| sym := 5; ch := [2]; par := 0 |}; {| sym := 5; ch := [2; 2]; par := 1 |} ]%N; finals := [] |}, 3, 4.
  split; [apply dense_ok_below; vm_compute; reflexivity|]. split; [apply down_ok_b_sound; vm_compute; reflexivity|]. split.
  - apply (proj1 (memP_In _ _)). vm_compute. reflexivity.
  - intros H. apply memP_In in H. vm_compute in H. discriminate.
Qed.

Definition mkenv (X : uix) (p : rule) (a b : list N) : env :=
  (a ++ b, N.of_nat (length a), u_sidx X (sym p), u_idx X (par p)).

Lemma envs_of_rule_In X p q E : In (q, E) (envs_of_rule X p) <-> exists a b, ch p = a ++ q :: b /\ E = mkenv X p a b.
Proof.
  unfold envs_of_rule, mkenv. split.
  - intros H. apply in_map_iff in H as [[[a y] b] [Eq Hs%splits_spec]]. injection Eq as -> <-. eauto.
  - intros [a [b [Hc%splits_spec ->]]]. apply in_map_iff. exists (a, q, b). auto.
Qed.

Definition wide (p : rule) : Prop := 2 <= length (ch p).

Lemma up_rule_edges_In X leaf p e : In e (up_rule_edges X leaf p) <->
  (ch p = [] /\ e = (leaf, u_sidx X (sym p), u_idx X (par p))) \/
  (exists c, ch p = [c] /\ e = (u_idx X c, u_sidx X (sym p), u_idx X (par p))) \/
  (wide p /\ exists a q b, ch p = a ++ q :: b /\
     (e = (u_idx X q, u_nsym X, u_eidx X (mkenv X p a b)) \/
      e = (u_eidx X (mkenv X p a b), u_sidx X (sym p), u_idx X (par p)))).
Proof.
  unfold up_rule_edges, wide. split.
  - destruct (ch p) as [|c [|c' cs]] eqn:E.
    + intros [<-|[]]. auto.
    + intros [<-|[]]. right; left. eauto.
    + rewrite <- E. intros H. apply in_flat_map in H as [[q En] [[a [b [Hc ->]]]%envs_of_rule_In He]]. right; right.
      split; [rewrite E; simpl; lia|]. exists a, q, b. split; auto. destruct He as [<-|[<-|[]]]; auto.
  - intros [[-> ->]|[[c [-> ->]]|[Hw [a [q [b [Hc He]]]]]]]; [left; reflexivity..|].
    destruct (ch p) as [|c [|c' cs]] eqn:E; [inversion Hw | exfalso; simpl in Hw; lia | rewrite <- E in Hc].
    apply in_flat_map. exists (q, mkenv X p a b). split; [apply envs_of_rule_In; eauto|]. destruct He as [->| ->]; simpl; auto.
Qed.

Lemma split_arity p a q b : ch p = a ++ q :: b -> wide p \/ (a = [] /\ b = []).
Proof. intros Hc. unfold wide. rewrite Hc, app_length. destruct a, b; simpl; auto; left; lia. Qed.

Lemma translate_up_In X n A e : In e (translate_up X n A) <-> exists p, In p (rules A) /\ In e (up_rule_edges X (N.of_nat n) p).
Proof. unfold translate_up. apply in_flat_map. Qed.

Lemma all_envs_In X A E : In E (all_envs X A) <-> exists p a q b, In p (rules A) /\ wide p /\ ch p = a ++ q :: b /\ E = mkenv X p a b.
Proof.
  unfold all_envs, wide. split.
  - intros H. apply in_flat_map in H as [p [Hp H]]. destruct (ch p) as [|c [|c' cs]] eqn:Ec; try (destruct H; fail).
    apply in_map_iff in H as [[q E'] [<- [a [b [Hc ->]]]%envs_of_rule_In]].
    exists p, a, q, b. repeat split; auto. rewrite Ec; simpl; lia.
  - intros [p [a [q [b [Hp [Hw [Hc ->]]]]]]]. apply in_flat_map. exists p. split; auto.
    destruct (ch p) as [|c [|c' cs]] eqn:Ec; [inversion Hw | exfalso; simpl in Hw; lia|].
    apply in_map_iff. exists (q, mkenv X p a b). split; auto. apply envs_of_rule_In. exists a, b. split; auto. congruence.
Qed.

Lemma env_key_eqb_spec E E' : env_key_eqb E E' = true <-> e_sibs E = e_sibs E' /\ e_pos E = e_pos E' /\ e_sym E = e_sym E'.
Proof. unfold env_key_eqb. rewrite !andb_true_iff, listN_eqb_eq, !N.eqb_eq. tauto. Qed.
Lemma env_eqb_eq e e' : env_eqb e e' = true <-> e = e'.
Proof.
  unfold env_eqb. rewrite andb_true_iff, env_key_eqb_spec, N.eqb_eq.
  destruct e as [[[s i] a] q], e' as [[[s' i'] a'] q']. unfold e_sibs, e_pos, e_sym, e_par. simpl. split.
  - intros [[-> [-> ->]] ->]. reflexivity.
  - intros E. inversion E. auto.
Qed.

Lemma app_inv_len {T} (a a' b b' : list T) : a ++ b = a' ++ b' -> length a = length a' -> a = a' /\ b = b'.
Proof. revert a'. induction a as [|x a IH]; destruct a' as [|x' a']; simpl; intros E HL; try discriminate; auto.
  inversion E; subst. destruct (IH a' H1) as [-> ->]; auto. Qed.

Lemma mkenv_key X p a b p' a' b' : env_key_eqb (mkenv X p a b) (mkenv X p' a' b') = true <->
  a = a' /\ b = b' /\ u_sidx X (sym p) = u_sidx X (sym p').
Proof.
  rewrite env_key_eqb_spec. unfold mkenv, e_sibs, e_pos, e_sym. simpl. split.
  - intros [K1 [K2 K3]]. destruct (app_inv_len _ _ _ _ K1) as [-> ->]; auto. lia.
  - intros [-> [-> ->]]. auto.
Qed.

Lemma up_node_init_In X n A x y : In (x, y) (up_node_init X n A) <->
  map_rel (u_idx X) (rel_of (up_init A n)) x y \/
  (x = N.of_nat n /\ y = N.of_nat n) \/
  (exists E E', In E (all_envs X A) /\ In E' (all_envs X A) /\ env_key_eqb E E' = true /\ x = u_eidx X E /\ y = u_eidx X E').
Proof.
  unfold up_node_init. rewrite !in_app_iff, (map_pair_In (u_idx X) (up_init A n) x y).
  apply or_iff_compat_l. simpl. split.
  - intros [[E|[]]|H]; [injection E as <- <-; auto | right].
    apply in_flat_map in H as [E [HE H]]. apply in_flat_map in H as [E' [HE' H]].
    destruct (env_key_eqb E E') eqn:K; [|destruct H]. destruct H as [H|[]]. injection H as <- <-. exists E, E'. auto.
  - intros [[-> ->]|[E [E' [HE [HE' [K [-> ->]]]]]]]; [auto | right].
    apply in_flat_map. exists E. split; auto. apply in_flat_map. exists E'. split; auto. rewrite K. left. reflexivity.
Qed.

Record up_ok (X : uix) (A : ta) (n : nat) : Prop := {
  uk_lt : forall x, (x < N.of_nat n)%N -> (u_idx X x < N.of_nat n)%N;
  uk_inj : forall x y, (x < N.of_nat n)%N -> (y < N.of_nat n)%N -> u_idx X x = u_idx X y -> x = y;
  uk_sinj : forall p p', In p (rules A) -> In p' (rules A) -> u_sidx X (sym p) = u_sidx X (sym p') -> sym p = sym p';
  uk_slt : forall p, In p (rules A) -> (u_sidx X (sym p) < u_nsym X)%N;
  uk_einj : forall E E', In E (all_envs X A) -> In E' (all_envs X A) -> u_eidx X E = u_eidx X E' -> E = E';
  uk_erng : forall E, In E (all_envs X A) -> (N.of_nat n < u_eidx X E)%N
}.
Lemma up_ok_b_sound X A n : up_ok_b X A n = true -> up_ok X A n.
Proof.
  unfold up_ok_b. intros [[[[[H1 H2]%andb_prop H3]%andb_prop H4]%andb_prop H5]%andb_prop H6]%andb_prop.
  rewrite forallb_forall in H1, H4, H6. constructor.
  - intros x Hx. apply N.ltb_lt, H1, seqN_In, Hx.
  - intros x y Hx Hy E. apply N.eqb_eq, (inj_b_spec _ _ _ H2); auto; apply seqN_In; auto.
  - intros p p' Hp Hp' E. apply N.eqb_eq, (inj_b_spec _ _ _ H3); auto.
  - intros p Hp. apply N.ltb_lt, H4, Hp.
  - intros e e' He He' E. apply env_eqb_eq, (inj_b_spec _ _ _ H5); auto.
  - intros e He. apply N.ltb_lt, H6, He.
Qed.

Section Up.
Variables (X : uix) (A : ta) (n : nat).
Hypothesis Hbelow : states_below A n.
Hypothesis Hok : up_ok X A n.
Let L := translate_up X n A.
Let idx := u_idx X.
Let leaf := N.of_nat n.

Lemma split_mid_lt p a q b : In p (rules A) -> ch p = a ++ q :: b -> (q < N.of_nat n)%N.
Proof. intros Hp Hc. apply (below_ch A n p q Hbelow Hp). rewrite Hc. apply in_elt. Qed.
Lemma up_env_in p a q b : In p (rules A) -> wide p -> ch p = a ++ q :: b -> In (mkenv X p a b) (all_envs X A).
Proof. intros. apply all_envs_In. exists p, a, q, b. auto. Qed.
Lemma up_idx_lt x : (x < N.of_nat n)%N -> (idx x < leaf)%N.
Proof. apply (uk_lt _ _ _ Hok). Qed.
Lemma up_eidx_gt E : In E (all_envs X A) -> (leaf < u_eidx X E)%N.
Proof. apply (uk_erng _ _ _ Hok). Qed.
Lemma up_sidx_nsym p : In p (rules A) -> u_sidx X (sym p) <> u_nsym X.
Proof. intros Hp E. pose proof (uk_slt _ _ _ Hok p Hp). lia. Qed.

Lemma edge_leaf p : In p (rules A) -> ch p = [] -> In (leaf, u_sidx X (sym p), idx (par p)) L.
Proof. intros Hp Hc. apply translate_up_In. exists p. split; auto. apply up_rule_edges_In. left; auto. Qed.
Lemma edge_unary p c : In p (rules A) -> ch p = [c] -> In (idx c, u_sidx X (sym p), idx (par p)) L.
Proof. intros Hp Hc. apply translate_up_In. exists p. split; auto. apply up_rule_edges_In. right; left. eauto. Qed.
Lemma edge_to_env p a q b : In p (rules A) -> wide p -> ch p = a ++ q :: b -> In (idx q, u_nsym X, u_eidx X (mkenv X p a b)) L.
Proof. intros Hp Hw Hc. apply translate_up_In. exists p. split; auto. apply up_rule_edges_In. right; right. split; auto. exists a, q, b. auto. Qed.
Lemma edge_from_env E : In E (all_envs X A) -> In (u_eidx X E, e_sym E, e_par E) L.
Proof. intros HE. apply all_envs_In in HE as [p [a [q [b [Hp [Hw [Hc ->]]]]]]].
  apply translate_up_In. exists p. split; auto. apply up_rule_edges_In. right; right. split; auto. exists a, q, b. split; auto. Qed.

Lemma up_from_state r l y : (r < N.of_nat n)%N -> In (idx r, l, y) L ->
  (exists p, In p (rules A) /\ ch p = [r] /\ l = u_sidx X (sym p) /\ y = idx (par p)) \/
  (exists p a b, In p (rules A) /\ wide p /\ ch p = a ++ r :: b /\ l = u_nsym X /\ y = u_eidx X (mkenv X p a b)).
Proof.
  intros Hr He. pose proof (up_idx_lt r Hr) as Hir. apply translate_up_In in He as [p [Hp He]]. apply up_rule_edges_In in He.
  destruct He as [[Hc E]|[[c [Hc E]]|[Hw [a [q [b [Hc [E|E]]]]]]]]; injection E as Ex -> ->.
  - exfalso. lia.
  - apply (uk_inj _ _ _ Hok) in Ex; auto; [|apply (split_mid_lt p [] c []); auto]. subst c. left. exists p. auto.
  - apply (uk_inj _ _ _ Hok) in Ex; auto; [|exact (split_mid_lt p a q b Hp Hc)]. subst q. right. exists p, a, b. auto.
  - exfalso. pose proof (up_eidx_gt _ (up_env_in p a q b Hp Hw Hc)). lia.
Qed.

Lemma up_from_env E l y : In E (all_envs X A) -> In (u_eidx X E, l, y) L -> l = e_sym E /\ y = e_par E.
Proof.
  intros HE He. pose proof (up_eidx_gt E HE) as Hr. apply translate_up_In in He as [p [Hp He]]. apply up_rule_edges_In in He.
  destruct He as [[Hc E']|[[c [Hc E']]|[Hw [a [q [b [Hc [E'|E']]]]]]]]; injection E' as Ex -> ->.
  - exfalso. lia.
  - exfalso. pose proof (up_idx_lt c (split_mid_lt p [] c [] Hp Hc)). unfold idx in *. lia.
  - exfalso. pose proof (up_idx_lt q (split_mid_lt p a q b Hp Hc)). unfold idx in *. lia.
  - rewrite (uk_einj _ _ _ Hok E (mkenv X p a b)); auto. eapply up_env_in; eauto.
Qed.

Let SL := rel_of (up_lts_sim X n A).
Let U := rel_of (up_sim A n).

Lemma up_SL_props : sub_rel SL (rel_of (up_node_init X n A)) /\ simulation L SL.
Proof. apply lts_sim_from_greatest. Qed.

Lemma up_SL_states q r : (q < N.of_nat n)%N -> (r < N.of_nat n)%N -> SL (idx q) (idx r) -> In q (finals A) -> In r (finals A).
Proof.
  intros Hq Hr HS. apply (proj1 up_SL_props) in HS. apply up_node_init_In in HS.
  pose proof (up_idx_lt q Hq).
  destruct HS as [[q0 [r0 [HI [Eq Er]]]]|[[Eq _]|[E [E' [HE [_ [_ [Eq _]]]]]]]].
  - apply up_init_In in HI as [Hq0 [Hr0 Hf]]. apply (uk_inj _ _ _ Hok) in Eq; auto. apply (uk_inj _ _ _ Hok) in Er; auto. subst. auto.
  - exfalso. unfold leaf in *. lia.
  - exfalso. pose proof (up_eidx_gt E HE). unfold idx in *. lia.
Qed.

Lemma up_SL_envs E E' : In E (all_envs X A) -> In E' (all_envs X A) -> SL (u_eidx X E) (u_eidx X E') -> env_key_eqb E E' = true.
Proof.
  intros HE HE' HS. apply (proj1 up_SL_props) in HS. apply up_node_init_In in HS.
  pose proof (up_eidx_gt E HE).
  destruct HS as [[q0 [r0 [HI [Eq Er]]]]|[[Eq _]|[E0 [E0' [HE0 [HE0' [K [Eq Er]]]]]]]].
  - exfalso. apply up_init_In in HI as [Hq0 _]. pose proof (up_idx_lt q0 Hq0). unfold idx in *. lia.
  - exfalso. unfold leaf in *. lia.
  - apply (uk_einj _ _ _ Hok) in Eq; auto. apply (uk_einj _ _ _ Hok) in Er; auto. subst. auto.
Qed.

Lemma up_from_lts : up_simulation A (read_back n idx SL).
Proof.
  pose proof (proj2 up_SL_props) as Hsim.
  intros q r [Hq [Hr HS]]. split; [apply up_SL_states; auto|].
  intros p a b Hp Hc.
  enough (exists p', In p' (rules A) /\ ch p' = a ++ r :: b /\ u_sidx X (sym p) = u_sidx X (sym p') /\ SL (idx (par p)) (idx (par p')))
    as [p' [Hp' [Hc' [Es HS']]]].
  { exists p'. split; [exact Hp'|]. split; [symmetry; exact (uk_sinj _ _ _ Hok p p' Hp Hp' Es)|].
    exact (conj Hc' (conj (below_par A n p Hbelow Hp) (conj (below_par A n p' Hbelow Hp') HS'))). }
  destruct (split_arity p a q b Hc) as [Hw|[-> ->]].
  - (* wide rule: through the environment node, which is answered by one with the same key *)
    pose proof (up_env_in p a q b Hp Hw Hc) as HE.
    destruct (Hsim _ _ HS _ _ (edge_to_env p a q b Hp Hw Hc)) as [y [He HS']].
    apply (up_from_state r _ _ Hr) in He as [[p' [Hp' [_ [Es _]]]]|[p' [a' [b' [Hp' [Hw' [Hc' [_ ->]]]]]]]].
    { destruct (up_sidx_nsym p' Hp'); auto. }
    pose proof (up_env_in p' a' r b' Hp' Hw' Hc') as HE'.
    pose proof (up_SL_envs _ _ HE HE' HS') as K. apply mkenv_key in K as [<- [<- Es]].
    destruct (Hsim _ _ HS' _ _ (edge_from_env _ HE)) as [z [He2 HSz]].
    apply (up_from_env _ _ _ HE') in He2 as [_ ->].
    exists p'. auto.
  - destruct (Hsim _ _ HS _ _ (edge_unary p q Hp Hc)) as [y [He HS']].
    apply (up_from_state r _ _ Hr) in He as [[p' [Hp' [Hc' [Es ->]]]]|[p' [a' [b' [Hp' [_ [_ [Es _]]]]]]]].
    + exists p'. auto.
    + destruct (up_sidx_nsym p Hp Es).
Qed.

(* the relation on nodes: images of related states, and environments with the same key and related parents.
   The leaf node is the target of no edge and can be left out. *)
Definition S_up : relN := fun x y => map_rel idx U x y \/
  (exists E E', In E (all_envs X A) /\ In E' (all_envs X A) /\ env_key_eqb E E' = true /\
                map_rel idx U (e_par E) (e_par E') /\ x = u_eidx X E /\ y = u_eidx X E').

Lemma up_U_props : within n U /\ up_simulation A U.
Proof. apply up_sim_greatest. Qed.

Lemma S_up_init : sub_rel S_up (rel_of (up_node_init X n A)).
Proof.
  intros x y HS. apply up_node_init_In. destruct HS as [[q [r [HU [-> ->]]]]|[E [E' [HE [HE' [K [_ [-> ->]]]]]]]].
  - left. exists q, r. repeat split; auto. apply up_init_In. destruct (proj1 up_U_props _ _ HU). repeat split; auto.
    apply (proj2 up_U_props _ _ HU).
  - right; right. exists E, E'. auto.
Qed.

Lemma S_up_sim : simulation L S_up.
Proof.
  destruct up_U_props as [Hw Hsim].
  intros x y [[q [r [HU [-> ->]]]]|[E [E' [HE [HE' [K [HU [-> ->]]]]]]]] l x' He.
  - apply (up_from_state q _ _ (proj1 (Hw _ _ HU))) in He as [[p [Hp [Hc [-> ->]]]]|[p [a [b [Hp [Hwd [Hc [-> ->]]]]]]]].
    + destruct (proj2 (Hsim _ _ HU) p [] [] Hp Hc) as [p' [Hp' [<- [Hc' HU']]]].
      exists (idx (par p')). split; [apply edge_unary; auto|]. left. exists (par p), (par p'). auto.
    + destruct (proj2 (Hsim _ _ HU) p a b Hp Hc) as [p' [Hp' [Es [Hc' HU']]]].
      assert (Hwd' : wide p').
      { unfold wide in *. rewrite Hc', app_length. rewrite Hc, app_length in Hwd. exact Hwd. }
      exists (u_eidx X (mkenv X p' a b)). split; [apply edge_to_env; auto|].
      right. exists (mkenv X p a b), (mkenv X p' a b).
      split; [eapply up_env_in; eauto|]. split; [eapply up_env_in; eauto|]. split; [apply mkenv_key; rewrite Es; auto|].
      split; auto. exists (par p), (par p'). auto.
  - apply (up_from_env _ _ _ HE) in He as [-> ->]. exists (e_par E'). split; [|left; exact HU].
    apply env_key_eqb_spec in K as [_ [_ ->]]. apply edge_from_env; auto.
Qed.

(* TranslateUpward is correct with respect to the initial relation written as the list up_node_init; TaEncPart.v shows that the
   partition and block relation the function builds induce that list *)
Theorem encode_up_correct_partial q r : (q < N.of_nat n)%N -> (r < N.of_nat n)%N ->
  (In (q, r) (up_sim A n) <-> In (idx q, idx r) (up_lts_sim X n A)).
Proof.
  revert q r. apply (encoding_correct (up_simulation A) n idx U SL S_up (up_sim_greatest A n)).
  - apply lts_sim_from_greatest. split; [apply S_up_init | apply S_up_sim].
  - intros x y H. left. exact H.
  - apply up_from_lts.
Qed.
End Up.

Example ex_enc_valid : states_below ex_ta 4 /\ ranked ex_ta /\ down_ok (canon_dix ex_ta 4) ex_ta 4 9 /\ up_ok (canon_uix ex_ta 4) ex_ta 4.
Proof.
  split; [apply dense_ok_below; vm_compute; reflexivity|].
  split; [apply ranked_ok_sound; vm_compute; reflexivity|].
  split; [apply down_ok_b_sound; vm_compute; reflexivity | apply up_ok_b_sound; vm_compute; reflexivity].
Qed.
