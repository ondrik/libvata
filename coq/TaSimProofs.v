(* C04 — proofs about the functional models of the downward / upward tree-automata simulations. *)
From Coq Require Import List NArith Bool Arith Lia.
Import ListNotations.
From V Require Import ListAux Sem Prod Lang LtsSimDefs LtsSimProofs TaSimDefs.

Definition down_simulation (A : ta) (R : relN) : Prop :=
  forall q r, R q r -> forall p, In p (rules A) -> par p = q ->
    exists p', In p' (rules A) /\ par p' = r /\ sym p' = sym p /\ Forall2 R (ch p) (ch p').

Definition up_simulation (A : ta) (R : relN) : Prop :=
  forall q r, R q r ->
    (In q (finals A) -> In r (finals A)) /\
    forall p a b, In p (rules A) -> ch p = a ++ q :: b ->
      exists p', In p' (rules A) /\ sym p' = sym p /\ ch p' = a ++ r :: b /\ R (par p) (par p').

Definition states_below (A : ta) (n : nat) : Prop := forall q, In q (states A) -> (q < N.of_nat n)%N.

Lemma below_par A n p : states_below A n -> In p (rules A) -> (par p < N.of_nat n)%N.
Proof. intros Hb Hp. exact (Hb _ (proj1 (rule_states A p Hp))). Qed.
Lemma below_ch A n p c : states_below A n -> In p (rules A) -> In c (ch p) -> (c < N.of_nat n)%N.
Proof. intros Hb Hp Hc. exact (Hb _ (proj2 (rule_states A p Hp) c Hc)). Qed.

Lemma pairwise_spec R : forall l m, pairwise R l m = true <-> Forall2 (rel_of R) l m.
Proof.
  induction l as [|x l IH]; destruct m as [|y m]; simpl.
  - split; auto.
  - split; [discriminate | intros H; inversion H].
  - split; [discriminate | intros H; inversion H].
  - rewrite andb_true_iff, memP_In, IH. split; [intros [? ?]; constructor; auto | intros H; inversion H; subst; auto].
Qed.

Lemma listN_eqb_eq : forall a b, listN_eqb a b = true <-> a = b.
Proof. exact (list_beq_eq N.eqb N.eqb_eq). Qed.

Lemma splits_spec : forall l a y b, In (a, y, b) (splits l) <-> l = a ++ y :: b.
Proof.
  induction l as [|x l IH]; intros a y b; simpl.
  - split; [tauto | destruct a; discriminate].
  - split.
    + intros [E|H].
      * injection E as <- <- <-. reflexivity.
      * apply in_map_iff in H as [[[a' y'] b'] [E H]]. injection E as <- <- <-. simpl. f_equal. apply IH, H.
    + destruct a as [|x' a']; simpl; intros E; injection E as <- ->; [left; reflexivity|].
      right. apply in_map_iff. exists (a', y, b). split; [reflexivity | apply IH; reflexivity].
Qed.

Lemma Forall2_refl_on {X} (P : X -> X -> Prop) l : (forall x, In x l -> P x x) -> Forall2 P l l.
Proof. induction l; intros H; constructor; [apply H; left; auto | apply IHl; intros; apply H; right; auto]. Qed.

Definition down_step (A : ta) (R : relN) : relN := fun q r =>
  forall p, In p (rules A) -> par p = q ->
    exists p', In p' (rules A) /\ par p' = r /\ sym p' = sym p /\ Forall2 R (ch p) (ch p').

Lemma down_keep_spec A R q r : down_keep A R (q, r) = true <-> down_step A (rel_of R) q r.
Proof.
  unfold down_keep, down_step. rewrite forallb_forall. simpl. split.
  - intros H p Hp Hq. specialize (H p Hp). rewrite Hq, N.eqb_refl in H.
    apply existsb_exists in H as [p' [Hp' [[H1%N.eqb_eq H2%N.eqb_eq]%andb_prop H3%pairwise_spec]%andb_prop]].
    exists p'. auto.
  - intros H p Hp. destruct (N.eqb_spec (par p) q) as [E|]; auto.
    destruct (H p Hp E) as [p' [Hp' [<- [<- H3]]]]. apply existsb_exists. exists p'. split; auto.
    rewrite !N.eqb_refl. apply pairwise_spec, H3.
Qed.

Lemma down_step_mono A R R' : sub_rel R R' -> sub_rel (down_step A R) (down_step A R').
Proof. intros Hi q r H p Hp Hq. destruct (H p Hp Hq) as [p' [? [? [? F]]]]. exists p'. repeat split; auto.
  apply (Forall2_impl R); auto. Qed.

Theorem down_sim_greatest A n :
  is_greatest (fun R => within n R /\ down_simulation A R) (rel_of (down_sim A n)).
Proof.
  apply (greatest_sim_ext _ _ _ _ (fun q r => all_pairs_In q r n)).
  apply (refine_step_greatest (down_keep A) (down_step A) (down_keep_spec A) (down_step_mono A)).
Qed.

Lemma down_diag A n : states_below A n -> down_simulation A (fun x y => x = y /\ (x < N.of_nat n)%N).
Proof.
  intros Hb x y [<- Hx] p Hp Hpq. exists p. repeat split; auto. apply Forall2_refl_on.
  intros c Hc. split; auto. exact (below_ch A n p c Hb Hp Hc).
Qed.
Lemma down_comp A R : down_simulation A R -> down_simulation A (fun x z => exists y, R x y /\ R y z).
Proof.
  intros Hsim a c [b [Hab Hbc]] p Hp Hpa. destruct (Hsim _ _ Hab p Hp Hpa) as [p1 [Hp1 [E1 [S1 F1]]]].
  destruct (Hsim _ _ Hbc p1 Hp1 E1) as [p2 [Hp2 [E2 [S2 F2]]]]. exists p2. repeat split; auto; [congruence|].
  exact (Forall2_compose _ _ _ _ _ F1 F2).
Qed.

Theorem down_sim_reflexive A n : states_below A n -> reflexive_on n (rel_of (down_sim A n)).
Proof. intros Hb. exact (within_greatest_reflexive n _ _ (down_diag A n Hb) (down_sim_greatest A n)). Qed.

Theorem down_sim_transitive A n : transitive (rel_of (down_sim A n)).
Proof. exact (within_greatest_transitive n _ _ (down_comp A) (down_sim_greatest A n)). Qed.

Definition up_step (A : ta) (R : relN) : relN := fun q r =>
  forall p a b, In p (rules A) -> ch p = a ++ q :: b ->
    exists p', In p' (rules A) /\ sym p' = sym p /\ ch p' = a ++ r :: b /\ R (par p) (par p').

Lemma up_keep_spec A R q r : up_keep A R (q, r) = true <-> up_step A (rel_of R) q r.
Proof.
  unfold up_keep, up_step. rewrite forallb_forall. simpl. split.
  - intros H p a b Hp E. specialize (H p Hp). rewrite forallb_forall in H.
    specialize (H (a, q, b) (proj2 (splits_spec _ _ _ _) E)). simpl in H. rewrite N.eqb_refl in H.
    apply existsb_exists in H as [p' [Hp' [[H1%N.eqb_eq H2%listN_eqb_eq]%andb_prop H3%memP_In]%andb_prop]].
    exists p'. auto.
  - intros H p Hp. apply forallb_forall. intros [[a y] b] Hs. simpl. apply splits_spec in Hs.
    destruct (N.eqb_spec y q) as [->|]; auto.
    destruct (H p a b Hp Hs) as [p' [Hp' [<- [H2%listN_eqb_eq H3%memP_In]]]]. apply existsb_exists. exists p'. split; auto.
    rewrite N.eqb_refl, H2, H3. reflexivity.
Qed.

Lemma up_step_mono A R R' : sub_rel R R' -> sub_rel (up_step A R) (up_step A R').
Proof. intros Hi q r H p a b Hp E. destruct (H p a b Hp E) as [p' [? [? [? ?]]]]. exists p'. auto. Qed.

Lemma up_init_In A n q r : In (q, r) (up_init A n) <->
  (q < N.of_nat n)%N /\ (r < N.of_nat n)%N /\ (In q (finals A) -> In r (finals A)).
Proof.
  unfold up_init. rewrite filter_In, all_pairs_In. simpl. rewrite implb_true_iff, !memN_In. tauto.
Qed.

Theorem up_sim_greatest A n :
  is_greatest (fun R => within n R /\ up_simulation A R) (rel_of (up_sim A n)).
Proof.
  apply (is_greatest_ext (fun R => sub_rel R (rel_of (up_init A n)) /\ sub_rel R (up_step A R))).
  - (* the clause on final states is the initial relation, the clause on rules is the step *)
    intros R. split.
    + intros [Hi Hs]. split; intros q r H; [|split; [|apply Hs, H]]; apply Hi, up_init_In in H; tauto.
    + intros [Hw Hs]. split; intros q r H; [|exact (proj2 (Hs q r H))].
      apply up_init_In. destruct (Hw q r H). split; auto. split; auto. apply (Hs q r H).
  - apply (refine_step_greatest (up_keep A) (up_step A) (up_keep_spec A) (up_step_mono A)).
Qed.

Lemma up_diag A n : states_below A n -> up_simulation A (fun x y => x = y /\ (x < N.of_nat n)%N).
Proof.
  intros Hb x y [<- Hx]. split; auto. intros p a b Hp E. exists p. repeat split; auto. exact (below_par A n p Hb Hp).
Qed.
Lemma up_comp A R : up_simulation A R -> up_simulation A (fun x z => exists y, R x y /\ R y z).
Proof.
  intros Hsim a c [b [Hab Hbc]]. split.
  - intros Hf. apply (Hsim _ _ Hbc), (Hsim _ _ Hab), Hf.
  - intros p l1 l2 Hp E. destruct (proj2 (Hsim _ _ Hab) p l1 l2 Hp E) as [p1 [Hp1 [S1 [E1 R1]]]].
    destruct (proj2 (Hsim _ _ Hbc) p1 l1 l2 Hp1 E1) as [p2 [Hp2 [S2 [E2 R2]]]].
    exists p2. repeat split; auto; [congruence|]. exists (par p1). auto.
Qed.

Theorem up_sim_reflexive A n : states_below A n -> reflexive_on n (rel_of (up_sim A n)).
Proof. intros Hb. exact (within_greatest_reflexive n _ _ (up_diag A n Hb) (up_sim_greatest A n)). Qed.

Theorem up_sim_transitive A n : transitive (rel_of (up_sim A n)).
Proof. exact (within_greatest_transitive n _ _ (up_comp A) (up_sim_greatest A n)). Qed.

Definition map_rel (h : N -> N) (R : relN) : relN := fun q' r' => exists q r, R q r /\ q' = h q /\ r' = h r.
Lemma map_pair_In h R q' r' : In (q', r') (map_pair h R) <-> map_rel h (rel_of R) q' r'.
Proof.
  unfold map_pair, map_rel, rel_of. rewrite in_map_iff. split.
  - intros [[q r] [E H]]. injection E as <- <-. exists q, r. auto.
  - intros [q [r [H [-> ->]]]]. exists (q, r). auto.
Qed.
Definition bij_on (n : nat) (h g : N -> N) : Prop :=
  forall x, (x < N.of_nat n)%N -> (h x < N.of_nat n)%N /\ g (h x) = x /\ (g x < N.of_nat n)%N /\ h (g x) = x.

Lemma bij_on_sym n h g : bij_on n h g -> bij_on n g h.
Proof. intros Hb x Hx. destruct (Hb x Hx) as [? [? [? ?]]]. auto. Qed.
Lemma bij_on_inj n h g x y : bij_on n h g -> (x < N.of_nat n)%N -> (y < N.of_nat n)%N -> h x = h y -> x = y.
Proof. intros Hb Hx Hy E. rewrite <- (proj1 (proj2 (Hb x Hx))), E. apply Hb, Hy. Qed.

Lemma image_ta_image h A : image_ta h A = image h A.
Proof. reflexivity. Qed.

Lemma image_inv h g A : (forall x, In x (states A) -> g (h x) = x) -> image g (image h A) = A.
Proof.
  intros H. assert (Hm : forall l, incl l (states A) -> map g (map h l) = l).
  { intros l Hl. rewrite map_map. rewrite <- (map_id l) at 2. apply map_ext_in. intros x Hx. apply H, Hl, Hx. }
  destruct A as [rs fs]. unfold image. simpl. f_equal.
  - rewrite map_map. rewrite <- (map_id rs) at 2. apply map_ext_in. intros [s c q] Hp. unfold map_rule. simpl.
    destruct (rule_states {| rules := rs; finals := fs |} _ Hp) as [Hq Hc]. f_equal; [apply Hm; exact Hc | apply H, Hq].
  - apply Hm. intros x Hx. apply in_or_app. right; auto.
Qed.

Lemma image_states_below h g A n : bij_on n h g -> states_below A n -> states_below (image h A) n.
Proof. intros Hb Hs x Hx. apply image_states, in_map_eq in Hx as [y [Hy ->]]. apply Hb, Hs, Hy. Qed.

Lemma within_map_rel n h g R : bij_on n h g -> within n R -> within n (map_rel h R).
Proof. intros Hb Hw q' r' [q [r [H [-> ->]]]]. destruct (Hw _ _ H). split; apply Hb; auto. Qed.

Lemma down_image n h g A R : bij_on n h g -> states_below A n -> within n R ->
  down_simulation A R -> down_simulation (image h A) (map_rel h R).
Proof.
  intros Hb Hs Hw Hsim q' r' [q [r [HR [-> ->]]]] p' Hp' Hq'.
  apply in_map_iff in Hp' as [p [<- Hp]]. simpl in Hq'.
  apply (bij_on_inj n h g) in Hq'; auto; [|exact (below_par A n p Hs Hp) | apply (Hw _ _ HR)].
  destruct (Hsim q r HR p Hp Hq') as [p2 [Hp2 [E2 [S2 F2]]]].
  exists (map_rule h p2). simpl. repeat split; auto; [apply in_map; auto | congruence|].
  apply Forall2_map_l, Forall2_map_r. apply (Forall2_impl R); auto. intros x y Hxy. exists x, y. auto.
Qed.

Lemma up_image n h g A R : bij_on n h g -> states_below A n -> within n R ->
  up_simulation A R -> up_simulation (image h A) (map_rel h R).
Proof.
  intros Hb Hs Hw Hsim q' r' [q [r [HR [-> ->]]]]. destruct (Hw _ _ HR) as [Hq Hr]. split.
  - simpl. intros Hf. apply in_map_iff in Hf as [q0 [E Hq0]].
    apply (bij_on_inj n h g) in E; auto; [|apply Hs, in_or_app; auto].
    subst q0. apply in_map. apply (Hsim _ _ HR), Hq0.
  - intros p' a' b' Hp' E'. apply in_map_iff in Hp' as [p [<- Hp]]. simpl in E'. simpl.
    apply map_eq_app in E' as [a [cb [E [<- E']]]]. apply map_eq_cons in E' as [c [b [-> [Ec <-]]]].
    apply (bij_on_inj n h g) in Ec; auto; [|apply (below_ch A n p c Hs Hp); rewrite E; apply in_elt]. subst c.
    destruct (proj2 (Hsim _ _ HR) p a b Hp E) as [p2 [Hp2 [S2 [E2 R2]]]].
    exists (map_rule h p2). simpl. repeat split; auto; [apply in_map; auto| |].
    + rewrite E2, map_app. reflexivity.
    + exists (par p), (par p2). auto.
Qed.

Section Equivariance.
  Variable Phi : ta -> relN -> Prop.
  Variable sim : ta -> nat -> list (N * N).
  Hypothesis sim_greatest : forall A n, is_greatest (fun R => within n R /\ Phi A R) (rel_of (sim A n)).
  Hypothesis phi_image : forall n h g A R, bij_on n h g -> states_below A n -> within n R -> Phi A R -> Phi (image h A) (map_rel h R).

  Lemma equivariant_sub n h g A : bij_on n h g -> states_below A n ->
    sub_rel (map_rel h (rel_of (sim A n))) (rel_of (sim (image h A) n)).
  Proof.
    intros Hb Hs. destruct (sim_greatest A n) as [[Hw Hp] _]. destruct (sim_greatest (image h A) n) as [_ Hg].
    apply Hg. split; [eapply within_map_rel; eauto | eapply phi_image; eauto].
  Qed.

  Theorem equivariant n h g A : bij_on n h g -> states_below A n ->
    forall q' r', In (q', r') (sim (image h A) n) <-> In (q', r') (map_pair h (sim A n)).
  Proof.
    intros Hb Hs q' r'. rewrite map_pair_In. split.
    - (* pull the pair back along g, which renames image h A to A *)
      intros H. destruct (sim_greatest (image h A) n) as [[Hw _] _]. destruct (Hw _ _ H) as [Hq Hr].
      assert (X := equivariant_sub n g h (image h A) (bij_on_sym n h g Hb) (image_states_below h g A n Hb Hs) (g q') (g r')).
      rewrite image_inv in X by (intros x Hx; apply Hb, Hs, Hx).
      exists (g q'), (g r'). split; [apply X; exists q', r'; auto|]. split; symmetry; apply Hb; auto.
    - apply (equivariant_sub n h g A Hb Hs).
  Qed.
End Equivariance.

Theorem down_sim_equivariant n h g A : bij_on n h g -> states_below A n ->
  forall q' r', In (q', r') (down_sim (image h A) n) <-> In (q', r') (map_pair h (down_sim A n)).
Proof. apply (equivariant down_simulation down_sim down_sim_greatest down_image). Qed.

Theorem up_sim_equivariant n h g A : bij_on n h g -> states_below A n ->
  forall q' r', In (q', r') (up_sim (image h A) n) <-> In (q', r') (map_pair h (up_sim A n)).
Proof. apply (equivariant up_simulation up_sim up_sim_greatest up_image). Qed.

Theorem gate_down_spec A n impl : gate_down A n impl = true <->
  exists S, is_greatest (fun R => within n R /\ down_simulation A R) S /\ forall q r, In (q, r) impl <-> S q r.
Proof. apply rel_same_greatest, down_sim_greatest. Qed.

Theorem gate_up_spec A n impl : gate_up A n impl = true <->
  exists S, is_greatest (fun R => within n R /\ up_simulation A R) S /\ forall q r, In (q, r) impl <-> S q r.
Proof. apply rel_same_greatest, up_sim_greatest. Qed.

Theorem gate_equivariant_spec h base variant : gate_equivariant h base variant = true <->
  forall q' r', In (q', r') variant <-> exists q r, In (q, r) base /\ q' = h q /\ r' = h r.
Proof.
  unfold gate_equivariant. rewrite rel_same_spec.
  split; intros H q' r'; rewrite H; [|symmetry]; apply map_pair_In.
Qed.

Lemma dense_ok_below A n : dense_ok A n = true -> states_below A n.
Proof. unfold dense_ok. rewrite andb_true_iff, forallb_forall. intros [H _] q Hq. apply N.ltb_lt, H, Hq. Qed.

Lemma index_of_nth : forall l y i d, In y l ->
  (i <= index_of y l i < i + N.of_nat (length l))%N /\ nth (N.to_nat (index_of y l i - i)) l d = y.
Proof.
  induction l as [|x l IH]; intros y i d Hy; [destruct Hy|]. cbn [index_of length].
  destruct (N.eqb_spec x y) as [->|NE].
  - rewrite N.sub_diag. split; [lia | reflexivity].
  - destruct Hy as [->|Hy]; [congruence|]. destruct (IH y (N.succ i) d Hy) as [Hr Hn]. split; [lia|].
    replace (N.to_nat (index_of y l (N.succ i) - i)) with (S (N.to_nat (index_of y l (N.succ i) - N.succ i))) by lia.
    exact Hn.
Qed.
Lemma index_of_nth_NoDup : forall l k i d, NoDup l -> k < length l -> index_of (nth k l d) l i = (i + N.of_nat k)%N.
Proof.
  induction l as [|x l IH]; intros k i d ND Hk; [inversion Hk|]. inversion ND as [|? ? Hx ND']; subst.
  destruct k as [|k]; simpl.
  - rewrite N.eqb_refl. lia.
  - simpl in Hk. destruct (N.eqb_spec x (nth k l d)) as [E|_].
    + destruct Hx. rewrite E. apply nth_In. lia.
    + rewrite IH by (auto; lia). lia.
Qed.

Lemma is_perm_spec n p : is_perm n p = true -> length p = n /\ NoDup p /\ forall y, In y p <-> (y < N.of_nat n)%N.
Proof.
  unfold is_perm. rewrite andb_true_iff, Nat.eqb_eq, forallb_forall. intros [Hl Hm].
  (* n entries that cover 0..n-1: no duplicates and nothing else *)
  assert (I : incl (seqN n) p) by (intros y Hy; apply memN_In, Hm, Hy).
  assert (Ls : length (seqN n) = n) by (unfold seqN; rewrite map_length, seq_length; auto).
  split; [exact Hl|]. split; [apply (NoDup_incl_NoDup (seqN_NoDup n)); [lia | exact I]|].
  intros y. rewrite <- seqN_In. split; [apply (NoDup_length_incl (seqN_NoDup n)); [lia | exact I] | apply I].
Qed.

Lemma perm_fun_bij n p : is_perm n p = true -> bij_on n (perm_fun p) (perm_inv p).
Proof.
  intros [Hl [ND Hin]]%is_perm_spec x Hx. unfold perm_fun, perm_inv.
  assert (Hxl : N.to_nat x < length p) by lia.
  destruct (index_of_nth p x 0 x (proj2 (Hin x) Hx)) as [Hr Hn]. rewrite N.sub_0_r in Hn.
  repeat split.
  - apply Hin, nth_In, Hxl.
  - rewrite (index_of_nth_NoDup p _ 0 x ND Hxl). apply N2Nat.id.
  - lia.
  - rewrite <- Hn at 3. apply nth_indep. lia.
Qed.

Example ex_ta : ta := {| rules := [ {| sym := 0; ch := []; par := 0 |}; {| sym := 1; ch := []; par := 1 |};
                                      {| sym := 0; ch := []; par := 1 |};
                                      {| sym := 3; ch := [0; 1]; par := 2 |}; {| sym := 3; ch := [1; 1]; par := 3 |} ];
                           finals := [2; 3] |}%N.
Example ex_valid : dense_ok ex_ta 4 = true /\ trimmed_ok ex_ta = true /\ ranked_ok ex_ta = true /\ is_perm 4 [2; 0; 3; 1]%N = true.
Proof. vm_compute. auto. Qed.
Example ex_down : down_sim ex_ta 4 = [(0, 0); (0, 1); (1, 1); (2, 2); (2, 3); (3, 3)]%N.
Proof. vm_compute. reflexivity. Qed.
Example ex_up : up_sim ex_ta 4 = [(0, 0); (0, 1); (1, 1); (2, 2); (2, 3); (3, 2); (3, 3)]%N.
Proof. vm_compute. reflexivity. Qed.
