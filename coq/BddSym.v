(* C08 / C07 — the symbolic transition tables of the BDD automata (src/bdd_bu_tree_aut_core.hh): the bottom-up
   encoding maps a tuple of child states to an MTBDD over the symbol bits whose leaves are SETS of parent states; one explicit rule
   f(c1..cn) -> p exists iff p is in the leaf reached under the bits of f. Union of two tables merges the MTBDDs of equal tuples with
   Apply2 and the leaf operation "set union"; Intersection pairs the tuples position-wise and merges with the leaf operation
   "all pairs". Theorems: for EVERY symbol (assignment of the bits) the explicit rules of the union table are the union of the
   explicit rules of the operands — the MTBDD level (apply2 pointwise, MtbddProofs) lifted to the automaton level; the entries of
   the intersection table are characterised, and the merged MTBDD of one entry holds, for every symbol, the pairs of parents. *)
From Coq Require Import List NArith Bool Arith.
Import ListNotations.
From V Require Import MtbddDefs MtbddProofs.

Definition pset := list N.
Definition pset_eq_dec : forall a b : pset, {a = b} + {a <> b} := list_eq_dec N.eq_dec.
Definition sdd := dd pset.
Definition btab := list (list N * sdd).

Definition tuple_eqb (a b : list N) : bool := if list_eq_dec N.eq_dec a b then true else false.
Definition lookup_t (T : btab) (cs : list N) : option sdd := option_map snd (find (fun e => tuple_eqb (fst e) cs) T).
Definition parents (T : btab) (cs : list N) (s : asg) : pset := match lookup_t T cs with Some d => ev pset d s | None => [] end.

Definition set_union (a b : pset) : pset := nodup N.eq_dec (a ++ b).
Definition merge_into (T : btab) (e : list N * sdd) : btab :=
  match lookup_t T (fst e) with
  | None => T ++ [e]
  | Some d => map (fun e' => if tuple_eqb (fst e') (fst e) then (fst e', apply2 pset pset_eq_dec set_union (snd e') (snd e)) else e') T
  end.
Definition bunion (A B : btab) : btab := fold_left merge_into B A.

(* Intersection: states are coded by a pairing function *)
Definition pair_code (K p q : N) : N := (p * K + q)%N.
Definition set_pairs (K : N) (a b : pset) : pset := flat_map (fun p => map (fun q => pair_code K p q) b) a.
Definition bisect (K : N) (A B : btab) : btab :=
  flat_map (fun ea => flat_map (fun eb =>
    if Nat.eqb (length (fst ea)) (length (fst eb))
    then [(map (fun pq => pair_code K (fst pq) (snd pq)) (combine (fst ea) (fst eb)), apply2 pset pset_eq_dec (set_pairs K) (snd ea) (snd eb))]
    else []) B) A.

Definition keys_nodup (T : btab) : Prop := NoDup (map fst T).

Lemma tuple_eqb_spec a b : reflect (a = b) (tuple_eqb a b).
Proof. unfold tuple_eqb. destruct (list_eq_dec N.eq_dec a b); constructor; auto. Qed.
Lemma lookup_t_some T cs d : lookup_t T cs = Some d -> In (cs, d) T.
Proof.
  unfold lookup_t. destruct (find _ T) as [[c d']|] eqn:E; simpl; intros [= <-].
  apply find_some in E as [Hin Hk]. simpl in Hk. destruct (tuple_eqb_spec c cs); [subst; auto|discriminate].
Qed.
Lemma lookup_t_in T cs d : keys_nodup T -> In (cs, d) T -> lookup_t T cs = Some d.
Proof.
  unfold keys_nodup, lookup_t. induction T as [|[c0 d0] T IH]; simpl; intros Hn Hin; [destruct Hin|].
  inversion Hn as [|? ? Hc Hn']; subst. destruct (tuple_eqb_spec c0 cs) as [->|N].
  - destruct Hin as [[= ->]|Hin]; auto. destruct Hc. apply (in_map fst _ _ Hin).
  - destruct Hin as [[= -> _]|Hin]; [contradiction|auto].
Qed.
Lemma lookup_t_app T e cs :
  lookup_t (T ++ [e]) cs =
  match lookup_t T cs with Some d => Some d | None => if tuple_eqb (fst e) cs then Some (snd e) else None end.
Proof.
  unfold lookup_t. induction T as [|e' T IH]; simpl; [destruct (tuple_eqb (fst e) cs); reflexivity|].
  destruct (tuple_eqb (fst e') cs); auto.
Qed.
Lemma lookup_t_map (f : list N * sdd -> list N * sdd) T cs : (forall e, fst (f e) = fst e) ->
  lookup_t (map f T) cs = option_map (fun d => snd (f (cs, d))) (lookup_t T cs).
Proof.
  intros Hf. unfold lookup_t. induction T as [|[c d] T IH]; simpl; auto. rewrite Hf. simpl.
  destruct (tuple_eqb_spec c cs) as [->|]; auto.
Qed.

Lemma parents_cons c d T cs s : parents ((c, d) :: T) cs s = if tuple_eqb c cs then ev pset d s else parents T cs s.
Proof. unfold parents, lookup_t. simpl. destruct (tuple_eqb c cs); reflexivity. Qed.
Lemma parents_nokey T cs s : ~ In cs (map fst T) -> parents T cs s = [].
Proof.
  intros H. unfold parents. destruct (lookup_t T cs) as [d|] eqn:E; auto.
  destruct H. apply (in_map fst _ _ (lookup_t_some _ _ _ E)).
Qed.

Lemma set_union_in a b x : In x (set_union a b) <-> In x a \/ In x b.
Proof. unfold set_union. rewrite nodup_In, in_app_iff. tauto. Qed.

Lemma merge_into_parents T e cs s x :
  In x (parents (merge_into T e) cs s) <-> In x (parents T cs s) \/ (cs = fst e /\ In x (ev pset (snd e) s)).
Proof.
  unfold merge_into, parents. destruct (lookup_t T (fst e)) as [d|] eqn:El.
  - rewrite lookup_t_map; [|intros e'; destruct (tuple_eqb _ _); reflexivity].
    destruct (lookup_t T cs) as [d0|] eqn:Ec; cbn [option_map fst snd].
    + destruct (tuple_eqb_spec cs (fst e)) as [->|N]; cbn [snd]; [|tauto].
      rewrite (apply2_ev pset pset_eq_dec), set_union_in. tauto.
    + split; [intros []|]. intros [[]|[-> _]]. congruence.
  - rewrite lookup_t_app. destruct (lookup_t T cs) as [d0|] eqn:Ec.
    + split; auto. intros [H|[-> _]]; auto. congruence.
    + destruct (tuple_eqb_spec (fst e) cs) as [<-|N]; simpl; [tauto|].
      split; [intros []|]. intros [[]|[-> _]]. contradiction.
Qed.

(* only the right operand, whose entries are merged in one by one, needs distinct tuples *)
Theorem bunion_parents : forall B A cs s x, keys_nodup B ->
  (In x (parents (bunion A B) cs s) <-> In x (parents A cs s) \/ In x (parents B cs s)).
Proof.
  unfold bunion. induction B as [|[c0 d0] B IH]; intros A cs s x HB; simpl.
  - tauto.
  - inversion HB as [|? ? He HB']; subst.
    rewrite (IH _ cs s x HB'), merge_into_parents, parents_cons. simpl.
    destruct (tuple_eqb_spec c0 cs) as [<-|N].
    + rewrite (parents_nokey B c0 s He). simpl. tauto.
    + intuition congruence.
Qed.

Lemma set_pairs_in K a b x : In x (set_pairs K a b) <-> exists p q, In p a /\ In q b /\ x = pair_code K p q.
Proof.
  unfold set_pairs. rewrite in_flat_map. split.
  - intros [p [Hp H]]. apply in_map_iff in H as [q [<- Hq]]. exists p, q. auto.
  - intros [p [q [Hp [Hq ->]]]]. exists p. split; auto. apply in_map_iff. exists q. auto.
Qed.
Theorem bisect_entry K A B cs d : In (cs, d) (bisect K A B) <->
  exists ca da cb db, In (ca, da) A /\ In (cb, db) B /\ length ca = length cb /\
    cs = map (fun pq => pair_code K (fst pq) (snd pq)) (combine ca cb) /\ d = apply2 pset pset_eq_dec (set_pairs K) da db.
Proof.
  unfold bisect. split.
  - intros H. apply in_flat_map in H as ([ca da] & Ha & H). apply in_flat_map in H as ([cb db] & Hb & H). cbn [fst snd] in H.
    destruct (Nat.eqb_spec (length ca) (length cb)) as [El|]; [|destruct H]. destruct H as [[= <- <-]|[]].
    exists ca, da, cb, db. auto.
  - intros (ca & da & cb & db & Ha & Hb & El & Ec & Ed). apply in_flat_map. exists (ca, da). split; [exact Ha|].
    apply in_flat_map. exists (cb, db). split; [exact Hb|]. cbn [fst snd]. rewrite El, Nat.eqb_refl, Ec, Ed. left. reflexivity.
Qed.
Theorem set_pairs_apply2_ev K da db s x :
  In x (ev pset (apply2 pset pset_eq_dec (set_pairs K) da db) s) <-> exists p q, In p (ev pset da s) /\ In q (ev pset db s) /\ x = pair_code K p q.
Proof. rewrite (apply2_ev pset pset_eq_dec). apply set_pairs_in. Qed.
Definition exA : btab := [([1; 2]%N, construct pset pset_eq_dec [T0; T1] [5%N] []); ([]%list, construct pset pset_eq_dec [T0; T0] [1%N] [])].
Definition exB : btab := [([1; 2]%N, construct pset pset_eq_dec [T0; T1] [6%N] []); ([3]%N, construct pset pset_eq_dec [T1; T1] [7%N] [])].
Definition s01 : asg := fun i => Nat.eqb i 1.
Example bunion_example :
  parents (bunion exA exB) [1; 2]%N s01 = [5; 6]%N /\ parents (bunion exA exB) [3]%N (fun _ => true) = [7%N] /\
  parents (bunion exA exB) [1; 2]%N (fun _ => true) = [] /\ length (bunion exA exB) = 3.
Proof. vm_compute. repeat split; reflexivity. Qed.
