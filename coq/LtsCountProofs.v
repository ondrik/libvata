(* C16 — the refinement loop with the counters of the code (LtsCountDefs.v) is partially correct: the counters
   always equal the number of transitions into states still related, so "counter reaches zero" is exactly "no successor left". *)
From Coq Require Import List NArith Bool Arith Lia.
Import ListNotations.
From V Require Import ListAux LtsSimDefs LtsSimProofs LtsWorkDefs LtsWorkProofs LtsCountDefs.

Lemma trip_eqb_eq x y : trip_eqb x y = true <-> x = y.
Proof.
  destruct x as [[a b] c], y as [[d e] f]. unfold trip_eqb. simpl. rewrite !andb_true_iff, !N.eqb_eq.
  split; [intros [[-> ->] ->]; auto | intros E; inversion E; auto].
Qed.
Lemma trip_eqb_refl x : trip_eqb x x = true. Proof. apply trip_eqb_eq; auto. Qed.
Lemma trip_eqb_neq x y : x <> y -> trip_eqb x y = false.
Proof. intros H. destruct (trip_eqb x y) eqn:E; auto. apply trip_eqb_eq in E. contradiction. Qed.

Lemma enters_spec L b q : enters L b q = true <-> exists x, In (x, b, q) L.
Proof.
  unfold enters. rewrite existsb_exists. split.
  - intros [[[s l] d] [He H]]. unfold elab, edst in H. simpl in H. rewrite andb_true_iff, !N.eqb_eq in H. destruct H as [-> ->]. eauto.
  - intros [x He]. exists (x, b, q). split; auto. unfold elab, edst. simpl. rewrite !N.eqb_refl. reflexivity.
Qed.

Lemma filter_len0 {X} (p : X -> bool) l : length (filter p l) = 0 <-> existsb p l = false.
Proof. induction l as [|x l IH]; simpl; [tauto|]. destruct (p x); simpl; [split; discriminate | exact IH]. Qed.
Lemma count0 L R b q r0 : count_succ L R b q r0 = 0 <-> has_succ L R b q r0 = false.
Proof. unfold count_succ, has_succ. apply filter_len0. Qed.
Lemma count_ext L R R2 b q r0 : (forall y, In y R <-> In y R2) -> count_succ L R b q r0 = count_succ L R2 b q r0.
Proof.
  intros H. unfold count_succ. f_equal. apply filter_ext. intros e. f_equal.
  apply eq_true_iff_eq. rewrite !memP_In. apply H.
Qed.

(* the double loop of a step is one run (decr_gone_dec) of single decrements [dec], over the keys [decs] of the transitions
   into the erased pairs; a decrement announces its key if it leaves zero *)
Definition dec (st : cnt_t * list trip) (k : trip) : cnt_t * list trip :=
  let v := pred (cnt_get (fst st) k) in (cnt_set (fst st) k v, if Nat.eqb v 0 then snd st ++ [k] else snd st).
Definition keys (L : lts) : N -> N -> lts -> list trip := keys_of (fun b q _ => enters L b q).
Definition decs (L : lts) : list (N * N) -> list trip := pre_keys (fun b q _ => enters L b q) L.

Lemma decr_pair_dec L st x : decr_pair L st x = fold_left dec (keys L (fst x) (snd x) L) st.
Proof.
  symmetry. apply fold_left_flat_map. intros e _ s. unfold decr_edge. destruct (_ && _); reflexivity.
Qed.
Lemma decr_gone_dec L gone st : fold_left (decr_pair L) gone st = fold_left dec (decs L gone) st.
Proof. symmetry. apply fold_left_flat_map. intros x _ s. symmetry. apply decr_pair_dec. Qed.

Lemma decs_In L gone b q r0 :
  In (b, q, r0) (decs L gone) <-> exists d, In (q, d) gone /\ In (r0, b, d) L /\ enters L b q = true.
Proof. exact (pre_keys_In (fun b q _ => enters L b q) L gone b q r0). Qed.

Lemma dec_get st k t :
  cnt_get (fst (dec st k)) t = if trip_eqb t k then pred (cnt_get (fst st) k) else cnt_get (fst st) t.
Proof. reflexivity. Qed.
Lemma dec_cnt : forall ks st k, cnt_get (fst (fold_left dec ks st)) k = cnt_get (fst st) k - length (filter (trip_eqb k) ks).
Proof.
  induction ks as [|k0 ks IH]; intros st k; cbn [fold_left filter]; [cbn; lia|].
  rewrite IH, dec_get. destruct (trip_eqb k k0) eqn:E; cbn [length]; [|lia].
  apply trip_eqb_eq in E. subst k. lia.
Qed.

Lemma dec_snd st k t : In t (snd (dec st k)) <-> In t (snd st) \/ (t = k /\ cnt_get (fst (dec st k)) k = 0).
Proof.
  rewrite dec_get, trip_eqb_refl. cbn [dec snd]. destruct (Nat.eqb_spec (pred (cnt_get (fst st) k)) 0) as [Z|Z].
  - rewrite in_app_iff. simpl. split; [intros [H|[<-|[]]] | intros [H|[-> _]]]; auto.
  - split; [|intros [H|[_ H]]]; auto. contradiction.
Qed.
Lemma dec_rem ks c t :
  In t (snd (fold_left dec ks (c, []))) <-> In t ks /\ cnt_get (fst (fold_left dec ks (c, []))) t = 0.
Proof.
  induction ks as [|k0 ks IH] using rev_ind; [simpl; tauto|].
  rewrite fold_left_app. cbn [fold_left]. set (s := fold_left dec ks (c, [])) in *.
  rewrite dec_snd, IH, in_app_iff, !dec_get, trip_eqb_refl. simpl (In t [k0]). destruct (trip_eqb t k0) eqn:E.
  - apply trip_eqb_eq in E. subst t. split; [intros [[H Hz]|[_ Hz]]; auto | intros [_ Hz]; auto]. rewrite Hz. auto.
  - assert (NE : t <> k0) by (intros ->; rewrite trip_eqb_refl in E; discriminate).
    split; [intros [[H Hz]|[H _]]; auto | intros [[H|[H|[]]] Hz]; auto]; congruence.
Qed.

Definition hit (L : lts) (q d : N) (k : trip) (e : N * N * N) : bool :=
  N.eqb (edst e) d && enters L (elab e) q && trip_eqb k (elab e, q, esrc e).

Lemma keys_hit L q d k es : length (filter (trip_eqb k) (keys L q d es)) = length (filter (hit L q d k) es).
Proof.
  unfold keys, keys_of. induction es as [|e es IH]; cbn [flat_map filter]; auto. unfold hit at 1.
  destruct (_ && _); cbn [app filter andb]; auto. destruct (trip_eqb _ _); cbn [length]; auto.
Qed.

Lemma filter_len_add {X} (p p2 h : X -> bool) es :
  (forall e, Nat.b2n (p e) = Nat.b2n (p2 e) + Nat.b2n (h e)) -> length (filter p es) = length (filter p2 es) + length (filter h es).
Proof.
  intros H. induction es as [|e es IH]; cbn [filter length]; auto. specialize (H e).
  destruct (p e), (p2 e), (h e); cbn [Nat.b2n length] in *; try discriminate; lia.
Qed.

Lemma count_split L R R2 q d b q1 r0 :
  In (q, d) R -> (forall y, In y R2 <-> In y R /\ y <> (q, d)) -> enters L b q1 = true ->
  forall es,
  length (filter (fun e => N.eqb (esrc e) r0 && N.eqb (elab e) b && memP (q1, edst e) R) es) =
  length (filter (fun e => N.eqb (esrc e) r0 && N.eqb (elab e) b && memP (q1, edst e) R2) es) +
  length (filter (hit L q d (b, q1, r0)) es).
Proof.
  intros Hin HR2 Hent es.
  assert (Hd : memP (q, d) R2 = false) by (apply memP_false; intros H; apply HR2 in H; destruct H as [_ H]; auto).
  assert (Hn : forall y, y <> (q, d) -> memP y R2 = memP y R).
  { intros y Hy. apply eq_true_iff_eq. rewrite !memP_In, HR2. tauto. }
  apply filter_len_add. intros [[s l] t]. unfold hit, esrc, elab, edst. cbn [fst snd].
  destruct (trip_eqb (b, q1, r0) (l, q, s)) eqn:Ek.
  - apply trip_eqb_eq in Ek. injection Ek as <- <- <-. rewrite Hent, !N.eqb_refl, !andb_true_r. cbn [andb].
    destruct (N.eqb_spec t d) as [->|Hne].
    + rewrite Hd, (proj2 (memP_In _ _) Hin). reflexivity.
    + rewrite Hn by congruence. destruct (memP (q1, t) R); reflexivity.
  - rewrite andb_false_r. cbn [Nat.b2n]. rewrite Nat.add_0_r. f_equal.
    destruct (N.eqb_spec s r0) as [->|]; cbn [andb]; auto. destruct (N.eqb_spec l b) as [->|]; cbn [andb]; auto.
    symmetry. apply Hn. intros E. injection E as -> ->. rewrite trip_eqb_refl in Ek. discriminate.
Qed.

Definition CInv (L : lts) (R : list (N * N)) (c : cnt_t) : Prop :=
  forall b q r0, enters L b q = true -> cnt_get c (b, q, r0) = count_succ L R b q r0.

Lemma count_gone L : forall gone R R', NoDup gone -> incl gone R -> (forall y, In y R' <-> In y R /\ ~ In y gone) ->
  forall b q r0, enters L b q = true ->
  count_succ L R b q r0 = count_succ L R' b q r0 + length (filter (trip_eqb (b, q, r0)) (decs L gone)).
Proof.
  induction gone as [|[x d] gone IH]; intros R R' Hnd Hi HR' b q r0 Hen.
  - rewrite Nat.add_0_r. apply count_ext. intros y. rewrite HR'. simpl. tauto.
  - apply NoDup_cons_iff in Hnd as [Hx Hnd].
    set (R1 := filter (fun y => negb (pairN_eqb y (x, d))) R).
    assert (HR1 : forall y, In y R1 <-> In y R /\ y <> (x, d)).
    { intros y. unfold R1. rewrite filter_In, negb_true_iff, <- not_true_iff_false, pairN_eqb_eq. reflexivity. }
    change (decs L ((x, d) :: gone)) with (keys L x d L ++ decs L gone). rewrite filter_app, app_length, keys_hit.
    unfold count_succ at 1. rewrite (count_split L R R1 x d b q r0 (Hi _ (or_introl eq_refl)) HR1 Hen L).
    fold (count_succ L R1 b q r0). rewrite (IH R1 R' Hnd); [lia| | |exact Hen].
    + intros y Hy. apply HR1. split; [apply Hi; right; exact Hy|]. intros ->. contradiction.
    + intros y. rewrite HR', HR1, not_in_cons. symmetry. apply and_assoc.
Qed.

Lemma step_counts L R c gone R' :
  NoDup gone -> incl gone R -> (forall y, In y R' <-> In y R /\ ~ In y gone) -> CInv L R c ->
  let st := fold_left (decr_pair L) gone (c, []) in
  CInv L R' (fst st) /\
  forall b q r0, In (b, q, r0) (snd st) <-> In (b, q, r0) (new_removes L R' gone) /\ enters L b q = true.
Proof.
  intros Hnd Hi HR' HC st. unfold st. rewrite decr_gone_dec.
  assert (HC' : CInv L R' (fst (fold_left dec (decs L gone) (c, [])))).
  { intros b q r0 Hen. rewrite dec_cnt. cbn [fst]. rewrite (HC b q r0 Hen), (count_gone L gone R R' Hnd Hi HR' b q r0 Hen). lia. }
  split; [exact HC'|]. intros b q r0. rewrite dec_rem, decs_In, new_removes_In. split.
  - intros [[d [Hg [He Hen]]] Hz]. split; auto. exists d. split; auto. split; auto.
    apply count0. rewrite <- (HC' b q r0 Hen). exact Hz.
  - intros [[d [Hg [He Hf]]] Hen]. split; [eauto|]. rewrite (HC' b q r0 Hen). apply count0, Hf.
Qed.

Section RunC.
Variable L : lts.
Variable R0 : list (N * N).

Theorem hhkc_partial_correct lifo fuel R c Rem R' :
  Inv L R0 R Rem -> CInv L R c -> NoDup R -> hhkc L lifo fuel R c Rem = Some R' ->
  forall q r, In (q, r) R' <-> In (q, r) (lts_sim_from L R0).
Proof.
  revert R c Rem. induction fuel as [|f IH]; intros R c Rem HI HC Hnd H; simpl in H; [discriminate|].
  destruct Rem as [|[[a q'] r0] Rem'].
  - injection H as <-. apply (inv_final L R0), HI.
  - set (V := victims L a q' r0) in H.
    destruct (step_counts L R c _ _ (NoDup_filter _ Hnd) (incl_filter (fun x => memP x V) R) (kept_not_gone R V) HC) as [HC' Hst].
    refine (IH _ _ _ _ HC' (NoDup_filter _ Hnd) H). apply (step_inv L R0 a q' r0 Rem' R _ HI).
    + intros [[b q] r1] Ht. apply queue_In in Ht as [Ht|Ht]; auto. right. apply Hst, Ht.
    + intros t Ht. apply queue_In. auto.
    + intros b q r1 Hn Hx. apply queue_In. right. apply Hst. split; [exact Hn | apply enters_spec, Hx].
Qed.
End RunC.

Lemma cnt_get_fun (F : trip -> nat) c k :
  (forall k v, In (k, v) c -> v = F k) -> ((forall v, ~ In (k, v) c) -> F k = 0) -> cnt_get c k = F k.
Proof.
  induction c as [|[k0 v0] c IH]; intros H Hz; simpl.
  - symmetry. apply Hz. intros v [].
  - destruct (trip_eqb k k0) eqn:E.
    + apply trip_eqb_eq in E. subst. apply H. left; auto.
    + apply IH; [intros k1 v1 H1; apply H; right; exact H1|]. intros Y. apply Hz. intros v [Hv|Hv]; [|apply (Y v Hv)].
      injection Hv as -> _. rewrite trip_eqb_refl in E. discriminate.
Qed.
Lemma init_counts_exact L R : CInv L R (init_counts L R).
Proof.
  intros b q r0 Hen. apply (cnt_get_fun (fun k => count_succ L R (fst (fst k)) (snd (fst k)) (snd k))).
  - intros k v Hk. apply in_flat_map in Hk as [e1 [_ Hk]]. apply in_map_iff in Hk as [e2 [E _]]. inversion E; subst. reflexivity.
  - (* no counter is kept for the key: r0 has no transition under b at all *)
    intros Y. apply count0, has_succ_false. intros r'' He _. apply enters_spec in Hen as [x Hx].
    apply (Y (count_succ L R b q r0)). apply in_flat_map. exists (x, b, q). split; auto.
    apply in_map_iff. exists (r0, b, r''). split; auto.
Qed.

Theorem hhkc_sim_partial_correct L lifo fuel n part brel R' :
  hhkc_sim L lifo fuel n part brel = Some R' -> forall q r, In (q, r) R' <-> In (q, r) (lts_sim L n part brel).
Proof.
  unfold hhkc_sim, lts_sim. intros H. eapply hhkc_partial_correct; [apply init_inv | apply init_counts_exact | | exact H].
  unfold prune_enabled, init_rel. apply NoDup_filter, NoDup_filter, all_pairs_NoDup.
Qed.

Theorem hhkc_sim_passes_gate L lifo fuel n part brel m R' :
  hhkc_sim L lifo fuel n part brel = Some R' -> gate_lts L n part brel m (output m R') = true.
Proof.
  intros H. apply same_passes_gate, (hhkc_sim_partial_correct L lifo fuel n part brel R' H).
Qed.

Example hhkc_example :
  hhkc_sim ex_lts true 20 3 [[0; 2]; [1]]%N [(0, 0); (1, 1); (0, 1)]%N = Some [(0, 0); (0, 1); (1, 1); (2, 2)]%N /\
  hhkc_sim ex_lts false 20 3 [[0; 2]; [1]]%N [(0, 0); (1, 1); (0, 1)]%N = Some [(0, 0); (0, 1); (1, 1); (2, 2)]%N.
Proof. vm_compute. split; reflexivity. Qed.

(* the counters must be computed on the pruned relation: computed before the pruning, a counter that starts too high never
   reaches zero and a pair that is not in any simulation survives *)
Definition st_lts : lts := [(0, 0, 1); (2, 0, 3); (2, 0, 4); (1, 1, 5); (4, 1, 6); (5, 2, 7); (6, 2, 8); (7, 3, 7)]%N.
Theorem hhkc_stale_counts_refuted :
  exists R', hhkc_sim_stale st_lts true 200 9 [seqN 9] [(0, 0)]%N = Some R' /\ In (0, 2)%N R' /\
             ~ In (0, 2)%N (lts_sim st_lts 9 [seqN 9] [(0, 0)]%N) /\
             hhkc_sim st_lts true 200 9 [seqN 9] [(0, 0)]%N = Some (lts_sim st_lts 9 [seqN 9] [(0, 0)]%N).
Proof.
  eexists. split; [vm_compute; reflexivity|]. split; [apply memP_In; reflexivity|]. split; [|vm_compute; reflexivity].
  apply memP_false. vm_compute. reflexivity.
Qed.
