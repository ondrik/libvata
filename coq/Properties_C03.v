(* C03 — Trimming preserves the language and leaves no dead states; emptiness is exact.
   Nothing but statements closed by [exact]; the proofs are in TrimProofs.v. *)
From Coq Require Import List NArith Bool.
From V Require Import Sem Prod Incl TrimDefs TrimProofs UselessCount.

(* RemoveUnreachableStates keeps the language (whatever the shortcut decides) *)
Theorem C03_unreach_lang : forall A t, accepts (remove_unreachable A) t <-> accepts A t.
Proof. exact unreach_lang. Qed.
(* ... and every state that still occurs is reachable top-down from a final state *)
Theorem C03_unreach_post : forall A q, In q (states (remove_unreachable A)) -> TdReach (remove_unreachable A) q.
Proof. exact unreach_post. Qed.
(* RemoveUselessStates keeps the language *)
Theorem C03_useless_lang : forall A t, accepts (remove_useless A) t <-> accepts A t.
Proof. exact useless_lang. Qed.
(* ... every remaining rule has a top-down reachable parent and productive children,
   every remaining state is top-down reachable and productive *)
Theorem C03_useless_post : forall A, let L := remove_useless A in
  (forall r, In r (rules L) -> TdReach L (par r) /\ forall c, In c (ch r) -> In c (productive L)) /\
  (forall q, In q (states L) -> TdReach L q /\ In q (productive L)).
Proof. exact useless_post. Qed.
(* the `remaining == 0` shortcut of RemoveUselessStates is harmless *)
Theorem C03_remaining_zero : forall A P, remaining A P = 0 -> forall r, In r (rules A) -> rule_productive P r = true.
Proof. exact remaining_zero. Qed.
(* IsLangEmpty is exact *)
Theorem C03_is_lang_empty : forall A, is_lang_empty A = true <-> forall t, ~ accepts A t.
Proof. exact is_lang_empty_spec. Qed.
(* the gates used by the correspondence check decide exactly the property on the implementation's output *)
Theorem C03_gate_unreach : forall A U, gate_unreach A U = true ->
  (forall t, accepts U t <-> accepts A t) /\ forall q, In q (states U) -> TdReach U q.
Proof. intros A U. apply gate_unreach_spec. Qed.
Theorem C03_gate_useless : forall A L, gate_useless A L = true <->
  (forall t, accepts L t <-> accepts A t) /\ useless_postcond L.
Proof. exact gate_useless_spec. Qed.
Theorem C03_gate_empty : forall A e, gate_empty A e = true <-> (e = true <-> forall t, ~ accepts A t).
Proof. exact gate_empty_spec. Qed.
(* an implementation agreeing with the model passes the gates *)
Theorem C03_model_unreach_passes : forall A, gate_unreach A (remove_unreachable A) = true.
Proof. exact model_unreach_passes. Qed.
Theorem C03_model_useless_passes : forall A, gate_useless A (remove_useless A) = true.
Proof. exact model_useless_passes. Qed.
Theorem C03_model_empty_passes : forall A, gate_empty A (is_lang_empty A) = true.
Proof. exact model_empty_passes. Qed.
(* the historical shortcut |reachable| = |owners| breaks the post-condition *)
Theorem C03_old_shortcut_refuted : exists A, no_unreachable (remove_unreachable_old A) = false.
Proof. exact TrimProofs.C03_old_shortcut_refuted. Qed.

(* (A) the algorithm behind RemoveUselessStates / IsLangEmpty: one counter per rule (distinct children not yet known productive), a work
   list of productive states, a parent marked when its rule's counter reaches zero. A run that ends has marked exactly the states
   that generate a tree, for every fuel *)
Theorem C03_counter_algorithm_exact : forall A fuel M, productive_count A fuel = Some M -> forall q, In q M <-> exists t, reach A t q.
Proof. exact productive_count_exact. Qed.
Theorem C03_counter_algorithm_is_productive : forall A fuel M, productive_count A fuel = Some M -> forall q, In q M <-> In q (productive A).
Proof. exact productive_count_is_productive. Qed.
(* decrementing once per occurrence of the popped state, or waiting for a prefix of the child positions only, is refuted *)
Theorem C03_counter_variants_refuted :
  productive_count vA 10 = Some (cons 1%N nil) /\ productive vA = cons 1%N nil /\
  urun_occ 10 (uinit vA) = Some (cons 0 (cons 1 nil))%N /\ urun 10 (uinit_k 2 vA) = Some (cons 0 (cons 1 nil))%N.
Proof. exact counter_variants_refuted. Qed.

Print Assumptions C03_unreach_lang.
Print Assumptions C03_unreach_post.
Print Assumptions C03_useless_lang.
Print Assumptions C03_useless_post.
Print Assumptions C03_remaining_zero.
Print Assumptions C03_is_lang_empty.
Print Assumptions C03_gate_unreach.
Print Assumptions C03_gate_useless.
Print Assumptions C03_gate_empty.
Print Assumptions C03_model_unreach_passes.
Print Assumptions C03_model_useless_passes.
Print Assumptions C03_model_empty_passes.
Print Assumptions C03_old_shortcut_refuted.
Print Assumptions C03_counter_algorithm_exact.
Print Assumptions C03_counter_algorithm_is_productive.
Print Assumptions C03_counter_variants_refuted.
