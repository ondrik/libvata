(* C01 / C07 — the cache of REFUTED goals of the downward checkers (isNoninclusionImplied): a recorded refutation of (p, P) may be used to
   refute a query (q, S) when every tree of p is a tree of q (p is below q in the preorder) and S is contained in P. Using the
   preorder the other way round (q below p) is unsound. *)
From Coq Require Import List NArith.
Import ListNotations.
From V Require Import Sem DownIncl.

Definition below (A : ta) (p q : N) := forall t, reach A t p -> reach A t q.

Theorem neg_cache_sound A B p q P S :
  ~ Incl A B p P -> below A p q -> incl S P -> ~ Incl A B q S.
Proof.
  intros Hn Hb Hs Hq. apply Hn. intros t R. destruct (Hq t (Hb t R)) as [s [Hin Rs]]. exists s. split; auto.
Qed.

Definition mkn (f : N) (c : list N) (p : N) : rule := {| sym := f; ch := c; par := p |}.
(* p = 1 accepts a and b, q = 2 accepts a only (q below p); B: state 5 accepts a. (p, {5}) is refuted, (q, {5}) holds *)
Definition ncA : ta := {| rules := [mkn 0 [] 1; mkn 1 [] 1; mkn 0 [] 2]; finals := [1; 2]%N |}.
Definition ncB : ta := {| rules := [mkn 0 [] 5]; finals := [5%N] |}.

Theorem neg_cache_wrong_side_refuted :
  below ncA 2%N 1%N /\ ~ Incl ncA ncB 1%N [5%N] /\ Incl ncA ncB 2%N [5%N].
Proof.
  assert (Inv2 : forall t, reach ncA t 2%N -> t = Node 0 []).
  { intros t R. inversion R as [g ts r Hr Hs HF Ht Hp]; subst.
    simpl in Hr. destruct Hr as [<-|[<-|[<-|[]]]]; simpl in *; try discriminate. inversion HF. reflexivity. }
  split; [|split].
  - intros t R. rewrite (Inv2 t R). exact (reach_node ncA 0%N [] (mkn 0 [] 1) (or_introl eq_refl) eq_refl (Forall2_nil _)).
  - intros H. destruct (H _ (reach_node ncA 1%N [] (mkn 1 [] 1) (or_intror (or_introl eq_refl)) eq_refl (Forall2_nil _))) as [s [Hs Rs]].
    inversion Rs as [g ts r [<-|[]] Hsym HF Ht Hp]. discriminate Hsym.
  - intros t R. rewrite (Inv2 t R). exists 5%N. split; [left; reflexivity|].
    exact (reach_node ncB 0%N [] (mkn 0 [] 5) (or_introl eq_refl) eq_refl (Forall2_nil _)).
Qed.
