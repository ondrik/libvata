(* C17 — the apply functors memoise their results in a table keyed by the pair of operand nodes (apply2func.hh: `ht`),
   valid for ONE apply call: recDescend first looks the pair up, otherwise classifies the case, descends and stores the result.
   Model: the table is threaded through the recursion (fuel-indexed; None = out of fuel). Theorem: with a table whose entries are all
   right for the operation at hand (the empty table at the start of a call), every result is that of the memo-free apply2 and the
   table stays right. A table that survives into a call with ANOTHER leaf operation is refuted. *)
From Coq Require Import List Arith Bool.
From V Require Import MtbddDefs MtbddProofs.
Import ListNotations.

Section Memo.
Variable V : Type.
Variable V_eq_dec : forall a b : V, {a = b} + {a <> b}.
Notation dd := (dd V).

Definition memo := list ((dd * dd) * dd).
Definition key_eqb (a b : dd) (e : (dd * dd) * dd) : bool := dd_eqb V V_eq_dec (fst (fst e)) a && dd_eqb V V_eq_dec (snd (fst e)) b.
Definition lookup (m : memo) (a b : dd) : option dd := option_map snd (find (key_eqb a b) m).

Fixpoint apply2m (fuel : nat) (op : V -> V -> V) (m : memo) (a b : dd) : option (memo * dd) :=
  match fuel with
  | 0 => None
  | S f =>
      match lookup m a b with
      | Some r => Some (m, r)
      | None =>
          let '(b1, b2) := classify2 V a b in
          if negb b1 && negb b2
          then let r := match a, b with Leaf u, Leaf v => Leaf (op u v) | _, _ => a end in Some (((a, b), r) :: m, r)
          else let x := if b2 then var_of V b else var_of V a in
               match apply2m f op m (if b1 then child_lo V a else a) (if b2 then child_lo V b else b) with
               | None => None
               | Some (m1, rl) =>
                   match apply2m f op m1 (if b1 then child_hi V a else a) (if b2 then child_hi V b else b) with
                   | None => None
                   | Some (m2, rh) => let r := mk V V_eq_dec x rl rh in Some (((a, b), r) :: m2, r)
                   end
               end
      end
  end.

Definition memo_ok (op : V -> V -> V) (m : memo) : Prop := forall a b r, In ((a, b), r) m -> r = apply2 V V_eq_dec op a b.

Lemma lookup_in m a b r : lookup m a b = Some r -> In ((a, b), r) m.
Proof.
  unfold lookup. destruct (find (key_eqb a b) m) as [[[a' b'] r']|] eqn:E; simpl; intros [= <-].
  apply find_some in E as [Hin Hk]. unfold key_eqb in Hk. simpl in Hk.
  apply andb_true_iff in Hk as [H1 H2]. apply dd_eqb_eq in H1 as <-, H2 as <-. exact Hin.
Qed.

Lemma memo_ok_cons op m a b : memo_ok op m -> memo_ok op (((a, b), apply2 V V_eq_dec op a b) :: m).
Proof. intros Hm a' b' r' [[= <- <- <-]|Hin]; auto. Qed.

Theorem apply2m_correct op : forall fuel m a b m' r,
  memo_ok op m -> apply2m fuel op m a b = Some (m', r) -> r = apply2 V V_eq_dec op a b /\ memo_ok op m'.
Proof.
  induction fuel as [|f IH]; intros m a b m' r Hm; simpl; [discriminate|].
  destruct (lookup m a b) as [r0|] eqn:El.
  - intros [= <- <-]. split; [apply Hm, lookup_in, El | exact Hm].
  - assert (R := apply2_recdescend V V_eq_dec op a b). cbv zeta in R.
    destruct (classify2 V a b) as [b1 b2]. destruct (negb b1 && negb b2).
    + intros [= <- <-]. rewrite <- R. split; [reflexivity | apply memo_ok_cons, Hm].
    + destruct (apply2m f op m _ _) as [[m1 rl]|] eqn:E1; [|discriminate]. apply (IH _ _ _ _ _ Hm) in E1 as [-> Hm1].
      destruct (apply2m f op m1 _ _) as [[m2 rh]|] eqn:E2; [|discriminate]. apply (IH _ _ _ _ _ Hm1) in E2 as [-> Hm2].
      intros [= <- <-]. rewrite <- R. split; [reflexivity | apply memo_ok_cons, Hm2].
Qed.

Theorem apply2m_fresh op fuel a b m' r : apply2m fuel op [] a b = Some (m', r) -> r = apply2 V V_eq_dec op a b.
Proof. intros H. destruct (apply2m_correct op fuel [] a b m' r) as [E _]; auto. intros x y z []. Qed.
End Memo.

Theorem apply2m_stale_refuted :
  let a := Leaf 1 in let b := Leaf 2 in
  exists m r, apply2m nat Nat.eq_dec 5 Nat.add [] a b = Some (m, r) /\
              apply2m nat Nat.eq_dec 5 Nat.mul m a b = Some (m, Leaf 3) /\ apply2 nat Nat.eq_dec Nat.mul a b = Leaf 2.
Proof. eexists. eexists. split; [vm_compute; reflexivity|]. split; vm_compute; reflexivity. Qed.
Example apply2m_example :
  let s := Nd 0 (Leaf 1) (Leaf 2) in let a := Nd 1 s s in let b := Nd 1 (Leaf 5) (Leaf 7) in
  option_map snd (apply2m nat Nat.eq_dec 10 Nat.add [] (Nd 2 a a) (Nd 2 b b)) = Some (apply2 nat Nat.eq_dec Nat.add (Nd 2 a a) (Nd 2 b b)) /\
  option_map (fun x => length (fst x)) (apply2m nat Nat.eq_dec 10 Nat.add [] (Nd 2 a a) (Nd 2 b b)) = Some 8.
Proof. vm_compute. split; reflexivity. Qed.
