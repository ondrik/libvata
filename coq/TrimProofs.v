(* C03 — proofs about the trimming models of TrimDefs.v. *)
From Coq Require Import List NArith Bool Arith Lia.
Import ListNotations.
From V Require Import ListAux Fix Sem Prod Incl TrimDefs.

Definition leq (A B : ta) := forall t, accepts A t <-> accepts B t.

Lemma subN_spec l m : subN l m = true <-> incl l m.
Proof. exact (forallb_mem_incl memN memN_In l m). Qed.

Lemma rule_eqb_spec r s : rule_eqb r s = true <-> r = s.
Proof.
  unfold rule_eqb. fold (list_beq N.eqb). rewrite !andb_true_iff, !N.eqb_eq, (list_beq_eq _ N.eqb_eq). destruct r, s; simpl. split; [intros [[-> ->] ->] | intros [= -> -> ->]]; auto.
Qed.
Lemma subR_spec l m : subR l m = true <-> incl l m.
Proof. exact (forallb_mem_incl memR (existsb_eqb rule_eqb rule_eqb_spec) l m). Qed.

Lemma reach_mono (A B : ta) : incl (rules A) (rules B) -> forall t q, reach A t q -> reach B t q.
Proof. intros Hsub. apply reach_ind'. intros f ts r Hr Hs _ IH. constructor; auto. Qed.

Lemma equiv_dec_spec A B : equiv_dec A B = true <-> leq A B.
Proof.
  unfold equiv_dec, leq. rewrite andb_true_iff, !incl_dec_spec. unfold lincl.
  split; [intros [H1 H2] t; split; auto | intros H; split; intros t; apply H].
Qed.

Lemma ta_same_leq A B : ta_same A B = true -> leq A B.
Proof.
  unfold ta_same. rewrite !andb_true_iff, !subR_spec, !subN_spec. intros [[[H1 H2] H3] H4].
  intros t. split; intros [q [Hq R]]; exists q; split; auto; eapply reach_mono; eauto.
Qed.

Inductive TdReach (A : ta) : N -> Prop :=
| td_fin q : In q (finals A) -> TdReach A q
| td_child r c : In r (rules A) -> TdReach A (par r) -> In c (ch r) -> TdReach A c.

Lemma td_step_in A S x : In x (td_step A S) <->
  In x (finals A) \/ exists r, In r (rules A) /\ In (par r) S /\ In x (ch r).
Proof.
  unfold td_step. rewrite in_app_iff, in_flat_map_if. setoid_rewrite memN_In. reflexivity.
Qed.

Lemma td_step_mono A S T : incl S T -> incl (td_step A S) (td_step A T).
Proof. intros H x Hx. apply td_step_in in Hx. apply td_step_in. destruct Hx as [Hx|[r [Hr [Hp Hx]]]]; auto.
  right. exists r. auto. Qed.

Lemma td_step_bounded A S : incl (td_step A S) (states A).
Proof.
  intros x Hx. apply td_step_in in Hx as [Hx|(r & Hr & _ & Hx)]; [apply finals_states, Hx | apply (rule_states A r Hr), Hx].
Qed.

Theorem td_reach_spec A q : In q (td_reach A) <-> TdReach A q.
Proof.
  unfold td_reach. rewrite (saturate_lfp N N.eq_dec (td_step A) (td_step_mono A) (states A) (fun S _ => td_step_bounded A S)).
  split.
  - intros D. induction D as [S x _ IH Hx]. apply td_step_in in Hx as [Hx|[r [Hr [Hp Hx]]]].
    + apply td_fin; auto.
    + eapply td_child; eauto.
  - intros T. induction T as [q Hq|r c Hr _ IH Hc].
    + apply (der N (td_step A) []). intros y []. apply td_step_in. auto.
    + apply (der N (td_step A) [par r]). intros y [<-|[]]; auto. apply td_step_in. right. exists r. simpl; auto.
Qed.

Lemma td_reach_nodup A : NoDup (td_reach A).
Proof. unfold td_reach. apply saturate_nodup. constructor. Qed.

Lemma restrict_rules A r : In r (rules (restrict_par (td_reach A) A)) <-> In r (rules A) /\ TdReach A (par r).
Proof. simpl. rewrite filter_In, memN_In, td_reach_spec. tauto. Qed.

Lemma restrict_reach A t q : reach A t q -> TdReach A q -> reach (restrict_par (td_reach A) A) t q.
Proof.
  revert t q. apply (reach_ind' A (fun t q => TdReach A q -> reach (restrict_par (td_reach A) A) t q)).
  intros f ts r Hr Hs _ IH Hq. constructor; auto; [apply restrict_rules; auto|].
  eapply Forall2_impl_In; [|exact IH]. intros t c _ Hc H. apply H. eapply td_child; eauto.
Qed.

Lemma restrict_lang A : leq (restrict_par (td_reach A) A) A.
Proof.
  intros t. split; intros [q [Hq Hr]]; exists q; split; auto.
  - eapply reach_mono; [|exact Hr]. intros r Hin. apply restrict_rules in Hin. tauto.
  - apply restrict_reach; auto. apply td_fin; auto.
Qed.

Theorem unreach_lang_any sc A : leq (remove_unreachable_with sc A) A.
Proof. unfold remove_unreachable_with. destruct (sc _ _); [intros t; tauto | apply restrict_lang]. Qed.

Lemma unreach_lang A : leq (remove_unreachable A) A.
Proof. exact (unreach_lang_any shortcut A). Qed.

Lemma restrict_td A q : TdReach A q -> TdReach (restrict_par (td_reach A) A) q.
Proof.
  intros T. induction T as [q Hq|r c Hr Hp IH Hc]; [apply td_fin; auto|].
  apply (td_child _ r); auto. apply restrict_rules; auto.
Qed.

Lemma owners_in A q : In q (owners A) <-> exists r, In r (rules A) /\ par r = q.
Proof. unfold owners. rewrite nodup_In, in_map_iff. firstorder. Qed.

Lemma shortcut_owners A : shortcut (td_reach A) A = true -> incl (owners A) (td_reach A).
Proof.
  unfold shortcut. intros E. apply Nat.eqb_eq in E.
  set (F := filter (fun q => memN q (owners A)) (td_reach A)) in *.
  assert (Hi : incl (owners A) F).
  { apply NoDup_length_incl; [apply NoDup_filter, td_reach_nodup | lia |].
    intros x Hx. apply filter_In in Hx as [_ Hx]. apply memN_In; auto. }
  intros x Hx. apply Hi in Hx. apply filter_In in Hx. tauto.
Qed.

Lemma td_in_states A q : TdReach A q -> In q (states A).
Proof. induction 1 as [q Hq | r c Hr _ _ Hc]; [apply finals_states; auto | apply (rule_states A r Hr); auto]. Qed.

Lemma all_states_td A : (forall r, In r (rules A) -> TdReach A (par r)) -> forall q, In q (states A) -> TdReach A q.
Proof.
  intros H q Hq. apply states_in in Hq as [(r & Hr & [->|Hc])|Hq]; [auto | eapply td_child; eauto | apply td_fin; auto].
Qed.

Theorem unreach_post A : forall q, In q (states (remove_unreachable A)) -> TdReach (remove_unreachable A) q.
Proof.
  unfold remove_unreachable, remove_unreachable_with.
  destruct (shortcut (td_reach A) A) eqn:E; apply all_states_td; intros r Hr.
  - apply td_reach_spec, (shortcut_owners A E), owners_in. eauto.
  - apply restrict_td, restrict_rules, Hr.
Qed.

Lemma rule_productive_spec P r : rule_productive P r = true <-> forall c, In c (ch r) -> In c P.
Proof. exact (subN_spec (ch r) P). Qed.

Lemma reach_children_productive A (ts : list tree) cs : Forall2 (reach A) ts cs -> forall c, In c cs -> In c (productive A).
Proof. intros F c Hc. apply productive_spec. destruct (Forall2_In_r _ _ _ _ F Hc) as (t & _ & H). eauto. Qed.

(* the `remaining == 0` shortcut is harmless: it can only fire when every rule is productive *)
Lemma remaining_zero A P : remaining A P = 0 -> forall r, In r (rules A) -> rule_productive P r = true.
Proof.
  unfold remaining. intros E r Hr.
  destruct (nonnull r) eqn:Nn.
  2:{ unfold nonnull in Nn. unfold rule_productive. destruct (ch r); [reflexivity|discriminate]. }
  set (NN := filter nonnull (rules A)) in *.
  assert (H1 : length NN <= list_sum (map (fun r => length (nodup N.eq_dec (ch r))) NN)).
  { apply list_sum_ge_len. intros x Hx. apply filter_In in Hx as [_ Hx]. unfold nonnull in Hx.
    destruct (ch x) as [|c cs] eqn:Ec; [discriminate|].
    assert (Hin : In c (nodup N.eq_dec (c :: cs))) by (apply nodup_In; left; auto).
    destruct (nodup N.eq_dec (c :: cs)); [destruct Hin | simpl; lia]. }
  pose proof (filter_length_le (rule_productive P) NN) as H2.
  apply (filter_same_len (rule_productive P) NN); [lia|]. apply filter_In; auto.
Qed.

Lemma pp_rules A r : In r (rules (productive_part A)) <-> In r (rules A) /\ rule_productive (productive A) r = true.
Proof.
  unfold productive_part. simpl. destruct (Nat.eqb_spec (remaining A (productive A)) 0) as [E|NE].
  - split; [intros H; split; auto; eapply remaining_zero; eauto | tauto].
  - apply filter_In.
Qed.

Lemma pp_reach A t q : reach (productive_part A) t q <-> reach A t q.
Proof.
  split; [apply reach_mono; intros r Hr; apply pp_rules in Hr; tauto|].
  revert t q. apply reach_ind'. intros f ts r Hr Hs F IH. constructor; auto.
  apply pp_rules. split; auto. apply rule_productive_spec. eapply reach_children_productive; eauto.
Qed.

Lemma pp_lang A : leq (productive_part A) A.
Proof.
  intros t. split; intros [q [Hq Hr]]; exists q.
  - simpl in Hq. apply filter_In in Hq as [Hq _]. split; auto. apply pp_reach; auto.
  - split; [|apply pp_reach; auto]. simpl. apply filter_In. split; auto. apply memN_In, productive_spec. eauto.
Qed.

Theorem useless_lang A : leq (remove_useless A) A.
Proof. intros t. unfold remove_useless. rewrite (unreach_lang (productive_part A) t). apply pp_lang. Qed.

Lemma pp_productive A q : In q (productive (productive_part A)) <-> In q (productive A).
Proof. rewrite !productive_spec. split; intros [t Ht]; exists t; apply pp_reach; auto. Qed.

Lemma pp_states_productive A q : In q (states (productive_part A)) -> In q (productive A).
Proof.
  intros Hq. apply states_in in Hq as [(r & Hr & Hq)|Hq].
  - apply pp_rules in Hr as [Hr Hp]. assert (Hc := proj1 (rule_productive_spec _ _) Hp).
    destruct Hq as [->|Hc']; auto. apply productive_spec, reach_rule; auto.
    intros c Hcc. apply productive_spec; auto.
  - simpl in Hq. apply filter_In in Hq as [_ Hq]. apply memN_In; auto.
Qed.

Lemma unreach_reach A t q : reach A t q -> TdReach A q -> reach (remove_unreachable A) t q.
Proof.
  intros R T. unfold remove_unreachable, remove_unreachable_with. destruct (shortcut (td_reach A) A); auto. apply restrict_reach; auto.
Qed.

Lemma unreach_productive A q : TdReach A q -> In q (productive A) -> In q (productive (remove_unreachable A)).
Proof. rewrite !productive_spec. intros T [t Ht]. exists t. apply unreach_reach; auto. Qed.

Lemma unreach_rules_sub A : incl (rules (remove_unreachable A)) (rules A).
Proof. unfold remove_unreachable, remove_unreachable_with. destruct (shortcut _ _); [apply incl_refl|].
  simpl. intros r Hr. apply filter_In in Hr. tauto. Qed.
Lemma unreach_finals A : finals (remove_unreachable A) = finals A.
Proof. unfold remove_unreachable, remove_unreachable_with. destruct (shortcut _ _); reflexivity. Qed.

Lemma unreach_td_back A q : TdReach (remove_unreachable A) q <-> TdReach A q.
Proof.
  split; intros T.
  - induction T as [q Hq|r c Hr _ IH Hc].
    + apply td_fin. rewrite unreach_finals in Hq; auto.
    + eapply td_child; eauto. apply unreach_rules_sub; auto.
  - unfold remove_unreachable, remove_unreachable_with. destruct (shortcut _ _); [exact T | apply restrict_td, T].
Qed.

Lemma states_sub A B : incl (rules A) (rules B) -> incl (finals A) (finals B) -> incl (states A) (states B).
Proof.
  intros H1 H2 q. rewrite !states_in. intros [(r & Hr & Hq)|Hq]; [left; exists r|]; auto.
Qed.
Lemma unreach_states_sub A : incl (states (remove_unreachable A)) (states A).
Proof. apply states_sub; [apply unreach_rules_sub | rewrite unreach_finals; apply incl_refl]. Qed.
Lemma pp_states_sub A : incl (states (productive_part A)) (states A).
Proof.
  apply states_sub; [intros r Hr; apply pp_rules in Hr; tauto|]. simpl. intros q Hq. apply filter_In in Hq. tauto.
Qed.

Theorem useless_post A :
  let L := remove_useless A in
  (forall r, In r (rules L) -> TdReach L (par r) /\ forall c, In c (ch r) -> In c (productive L)) /\
  (forall q, In q (states L) -> TdReach L q /\ In q (productive L)).
Proof.
  intros L. set (PP := productive_part A).
  assert (HS : forall q, In q (states L) -> TdReach L q /\ In q (productive L)).
  { intros q Hq. assert (T := unreach_post PP q Hq). split; [exact T|].
    apply unreach_productive; [apply unreach_td_back; auto|].
    apply pp_productive, pp_states_productive.
    apply unreach_states_sub, Hq. }
  split; auto.
  intros r Hr. destruct (rule_states L r Hr) as [Hp Hc]. split; [exact (proj1 (HS _ Hp)) | intros c Hcc; exact (proj2 (HS _ (Hc c Hcc)))].
Qed.

Theorem is_lang_empty_spec A : is_lang_empty A = true <-> forall t, ~ accepts A t.
Proof.
  rewrite <- is_empty_spec. unfold is_lang_empty, remove_useless, is_empty. rewrite unreach_finals. simpl.
  induction (finals A) as [|q l IH]; simpl; [tauto|]. destruct (memN q (productive A)); simpl; [|exact IH].
  split; discriminate.
Qed.

Theorem gate_unreach_spec A U : gate_unreach A U = true <->
  leq U A /\ forall q, In q (states U) -> TdReach U q.
Proof. unfold gate_unreach, no_unreachable. rewrite andb_true_iff, equiv_dec_spec, subN_spec. unfold incl.
  setoid_rewrite td_reach_spec. reflexivity. Qed.

Definition useless_postcond (L : ta) :=
  (forall r, In r (rules L) -> TdReach L (par r) /\ forall c, In c (ch r) -> exists t, reach L t c) /\
  (forall q, In q (states L) -> TdReach L q /\ exists t, reach L t q).

Lemma no_useless_spec L : no_useless L = true <-> useless_postcond L.
Proof.
  unfold no_useless, useless_postcond, rule_useful, state_useful. rewrite andb_true_iff, !forallb_forall.
  setoid_rewrite andb_true_iff. setoid_rewrite memN_In. setoid_rewrite rule_productive_spec.
  setoid_rewrite td_reach_spec. setoid_rewrite productive_spec. reflexivity.
Qed.

Theorem gate_useless_spec A L : gate_useless A L = true <-> leq L A /\ useless_postcond L.
Proof. unfold gate_useless. rewrite andb_true_iff, equiv_dec_spec, no_useless_spec. tauto. Qed.

Theorem gate_empty_spec A e : gate_empty A e = true <-> (e = true <-> forall t, ~ accepts A t).
Proof. apply eqb_true_spec, is_empty_spec. Qed.

(* the models pass their own gates: an implementation that agrees with the model raises no alarm *)
Theorem model_unreach_passes A : gate_unreach A (remove_unreachable A) = true.
Proof. apply gate_unreach_spec. split; [apply unreach_lang | apply unreach_post]. Qed.

Theorem model_useless_passes A : gate_useless A (remove_useless A) = true.
Proof.
  apply gate_useless_spec. split; [apply useless_lang|].
  destruct (useless_post A) as [H1 H2]. split.
  - intros r Hr. destruct (H1 r Hr) as [Ha Hb]. split; [exact Ha|]. intros c Hc. apply productive_spec, Hb, Hc.
  - intros q Hq. destruct (H2 q Hq) as [Ha Hb]. split; [exact Ha | apply productive_spec, Hb].
Qed.

Theorem model_empty_passes A : gate_empty A (is_lang_empty A) = true.
Proof. apply gate_empty_spec, is_lang_empty_spec. Qed.

(* the historical size-comparison shortcut violates the post-condition *)
(* final state 5 owns no rule, rule a() -> 7: one reachable state, one rule owner, different sets *)
Theorem C03_old_shortcut_refuted :
  exists A, no_unreachable (remove_unreachable_old A) = false.
Proof. exists {| rules := [ {| sym := 0; ch := []; par := 7 |} ]; finals := [5%N] |}. vm_compute. reflexivity. Qed.
