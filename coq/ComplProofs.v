(* C06 — trees over an alphabet (over), the universal automaton accepts exactly these, and what the complement gate decides
   (compl_prop, defined here): over Sigma, C accepts exactly what A rejects. *)
From Coq Require Import List NArith Bool Arith.
Import ListNotations.
From V Require Import ListAux Sem Incl Lang ComplDefs.

Inductive over (S : sigma) : tree -> Prop :=
| over_node f ts : in_sigma S f (length ts) = true -> Forall (over S) ts -> over S (Node f ts).

Lemma in_sigma_spec S f k : in_sigma S f k = true <-> In (f, k) S.
Proof.
  unfold in_sigma. rewrite existsb_exists. split.
  - intros [[g j] [H E]]. simpl in E. apply andb_true_iff in E as [E1 E2]. apply N.eqb_eq in E1. apply Nat.eqb_eq in E2. subst; auto.
  - intros H. exists (f, k). split; auto. simpl. rewrite N.eqb_refl, Nat.eqb_refl. reflexivity.
Qed.

Lemma Forall2_repeat_iff {X Y} (R : X -> Y -> Prop) c ts k :
  Forall2 R ts (repeat c k) <-> length ts = k /\ Forall (fun t => R t c) ts.
Proof.
  split.
  - intros F. split; [rewrite (Forall2_length _ _ _ F); apply repeat_length|]. apply Forall_forall. intros t Ht.
    destruct (Forall2_In_l _ _ _ _ F Ht) as (y & Hy & HR). rewrite (repeat_spec _ _ _ Hy) in HR. exact HR.
  - intros [<- F]. induction F; simpl; constructor; auto.
Qed.

Lemma univ_reach S : forall t, reach (univ S) t 0%N <-> over S t.
Proof.
  induction t as [f ts IH] using tree_ind'. apply Forall_iff in IH. split.
  - intros R. apply reach_inv in R as (r & Hr & <- & HF & _). apply in_map_iff in Hr as ([g k] & <- & Hg). simpl in *.
    apply Forall2_repeat_iff in HF as [<- F]. constructor; [apply in_sigma_spec, Hg | apply IH, F].
  - intros O. inversion O as [f' ts' Hin HF]; subst. apply in_sigma_spec in Hin.
    apply (reach_intro _ {| sym := f; ch := repeat 0%N (length ts); par := 0%N |}); simpl; auto.
    + apply in_map_iff. exists (f, length ts). auto.
    + apply Forall2_repeat_iff. split; auto. apply IH, HF.
Qed.

Theorem univ_accepts S t : accepts (univ S) t <-> over S t.
Proof.
  unfold accepts; simpl. rewrite <- univ_reach. split; [intros [q [[<-|[]] R]]; auto | intros R; exists 0%N; auto].
Qed.

Lemma empty_ta_accepts t : ~ accepts empty_ta t.
Proof. intros [q [[] _]]. Qed.

Definition compl_prop (S : sigma) (A C : ta) :=
  (forall t, over S t -> accepts A t \/ accepts C t) /\ (forall t, ~ (accepts A t /\ accepts C t)) /\ (forall t, accepts C t -> over S t).

Theorem compl_gate_spec S A C : compl_gate S A C = true <-> compl_prop S A C.
Proof.
  unfold compl_gate, compl_prop. rewrite !andb_true_iff, !incl_dec_spec, isect_gate_spec. unfold lincl. split.
  - intros [[H1 H2] H3]. repeat split; intros t Ht.
    + apply tagged_lang, H1, univ_accepts, Ht.
    + apply (empty_ta_accepts t), H2, Ht.
    + apply univ_accepts, H3, Ht.
  - intros (H1 & H2 & H3). split; [split|]; intros t.
    + intros Ht. apply tagged_lang, H1, univ_accepts, Ht.
    + split; intros H; [destruct (empty_ta_accepts t H) | destruct (H2 t H)].
    + intros Ht. apply univ_accepts, H3, Ht.
Qed.

Theorem compl_prop_exact S A C : compl_prop S A C -> forall t, over S t -> (accepts C t <-> ~ accepts A t).
Proof.
  intros [H1 [H2 _]] t Ht. split.
  - intros Hc Ha. apply (H2 t); auto.
  - intros Hn. destruct (H1 t Ht); [contradiction | auto].
Qed.

Corollary compl_gate_exact S A C : compl_gate S A C = true -> forall t, over S t -> (accepts C t <-> ~ accepts A t).
Proof. intros H. apply compl_prop_exact, compl_gate_spec, H. Qed.
Corollary compl_gate_alphabet S A C : compl_gate S A C = true -> forall t, accepts C t -> over S t.
Proof. intros H. apply compl_gate_spec in H. apply H. Qed.
