(* Proofs about the nested rule store (StoreDefs.v): well-formedness is invariant (no duplicate key,
   no empty cluster, no empty tuple set), every view is exactly what the specification side says,
   and the gates decide the property clauses. *)
From Coq Require Import List NArith Bool Permutation PeanoNat.
Import ListNotations.
From V Require Import ListAux Sem Prod StoreDefs.
From V Require TrimProofs.

Lemma list_eqb_eq l : forall m, list_eqb l m = true <-> l = m.
Proof. exact (list_beq_eq N.eqb N.eqb_eq l). Qed.

Lemma rule_eqb_eq r s : rule_eqb r s = true <-> r = s.
Proof. exact (TrimProofs.rule_eqb_spec r s). Qed.
Lemma rule_eqb_refl r : rule_eqb r r = true. Proof. apply rule_eqb_eq; auto. Qed.
Lemma rule_eqb_sym r s : rule_eqb r s = rule_eqb s r.
Proof. apply eq_true_iff_eq. rewrite !rule_eqb_eq. split; auto. Qed.

Lemma memT_In t ts : memT t ts = true <-> In t ts.
Proof. apply existsb_eqb, list_eqb_eq. Qed.
Lemma memR_In r rs : memR r rs = true <-> In r rs.
Proof. apply existsb_eqb, rule_eqb_eq. Qed.

Lemma rule_eq_dec (r s : rule) : {r = s} + {r <> s}.
Proof. destruct (rule_eqb r s) eqn:E; [left; apply rule_eqb_eq; auto | right; intros ->; rewrite rule_eqb_refl in E; discriminate]. Qed.

(* A state that some operations extend ([gen]) and some reset ([kills]) holds exactly what was
   generated since the last reset. *)
Lemma In_history {O X} (kills : O -> bool) (gen : O -> list X) (step : list X -> O -> list X) :
  (forall l o, step l o = if kills o then [] else gen o ++ l) ->
  forall ops x, In x (fold_left step ops []) <->
    exists l1 o l2, ops = l1 ++ o :: l2 /\ In x (gen o) /\ Forall (fun o => kills o = false) (o :: l2).
Proof.
  intros Hstep ops x. induction ops as [|o ops IH] using rev_ind.
  - split; [intros [] | intros [[|? ?] [? [? [? _]]]]; discriminate].
  - rewrite fold_left_app. simpl. rewrite Hstep. split.
    + destruct (kills o) eqn:K; [intros []|]. intros H. apply in_app_or in H as [H|H].
      * exists ops, o, []. auto.
      * apply IH in H as [l1 [o0 [l2 [-> [Hx H]]]]]. exists l1, o0, (l2 ++ [o]). rewrite <- app_assoc.
        split; auto. split; auto. apply (Forall_app _ (o0 :: l2) [o]). auto.
    + intros [l1 [o0 [l2 [E [Hx H]]]]]. destruct l2 as [|o2 l2 _] using rev_ind.
      * apply app_inj_tail in E as [-> ->]. apply Forall_cons_iff in H as [-> _]. apply in_or_app; auto.
      * rewrite app_comm_cons, app_assoc in E. apply app_inj_tail in E as [-> ->].
        apply (Forall_app _ (o0 :: l2) [o2]) in H as [H K]. apply Forall_cons_iff in K as [-> _].
        apply in_or_app. right. apply IH. exists l1, o0, l2. auto.
Qed.

Lemma In_snoc_unless {X} (b : bool) (x y : X) l : (b = true -> In x l) ->
  (In y (if b then l else l ++ [x]) <-> x = y \/ In y l).
Proof.
  destruct b; intros H.
  - split; auto. intros [<-|Hy]; auto.
  - rewrite in_app_iff. simpl. split; [intros [Hy|[Hx|[]]] | intros [Hx|Hy]]; auto.
Qed.
Lemma NoDup_snoc_unless {X} (b : bool) (x : X) l : (In x l -> b = true) -> NoDup l -> NoDup (if b then l else l ++ [x]).
Proof. destruct b; intros H ND; auto. apply NoDup_snoc; auto. intros Hx. apply H in Hx. discriminate. Qed.

Lemma In_ins t t' ts : In t' (ins t ts) <-> t = t' \/ In t' ts.
Proof. apply In_snoc_unless, memT_In. Qed.
Lemma In_addN q x l : In x (addN q l) <-> q = x \/ In x l.
Proof. apply In_snoc_unless, memN_In. Qed.
Lemma addN_NoDup q l : NoDup l -> NoDup (addN q l).
Proof. apply NoDup_snoc_unless, memN_In. Qed.

Lemma nodupN_nodup l : nodupN l = nodup N.eq_dec l.
Proof.
  induction l as [|y l IH]; simpl; auto. rewrite IH.
  destruct (in_dec N.eq_dec y l) as [H|H]; [apply memN_In in H | apply memN_false in H]; rewrite H; reflexivity.
Qed.
Lemma In_nodupN x l : In x (nodupN l) <-> In x l.
Proof. rewrite nodupN_nodup. apply nodup_In. Qed.
Lemma nodupN_NoDup l : NoDup (nodupN l).
Proof. rewrite nodupN_nodup. apply NoDup_nodup. Qed.

Lemma In_fold_add {S X Y} (mem : X -> S -> Prop) (add : X -> S -> S) (g : Y -> X) :
  (forall x y s, mem y (add x s) <-> x = y \/ mem y s) ->
  forall ys s x, mem x (fold_left (fun s y => add (g y) s) ys s) <-> mem x s \/ In x (map g ys).
Proof.
  intros Hadd. induction ys as [|y ys IH]; simpl; intros s x; [split; [auto | intros [H|[]]; exact H]|]. rewrite IH, Hadd.
  split; [intros [[H|H]|H] | intros [H|[H|H]]]; auto.
Qed.
Lemma In_fold_addN (h : N -> N) qs : forall l x, In x (fold_left (fun l q => addN (h q) l) qs l) <-> In x l \/ In x (map h qs).
Proof. apply (In_fold_add (@In N) addN), In_addN. Qed.
Lemma fold_addN_NoDup (h : N -> N) qs l : NoDup l -> NoDup (fold_left (fun l q => addN (h q) l) qs l).
Proof. apply fold_left_inv. intros l' q _. apply addN_NoDup. Qed.

Definition keys {V} (l : list (N * V)) : list N := map fst l.
Definition vals {V} (l : list (N * V)) : list V := map snd l.
Definition getd {V} (k : N) (d : V) (l : list (N * V)) : V := match get k l with Some v => v | None => d end.

Lemma get_upd {V} k d (f : V -> V) l k' :
  get k' (upd k d f l) = if N.eqb k' k then Some (f (getd k d l)) else get k' l.
Proof.
  unfold getd. induction l as [|[k0 v] l IH]; simpl.
  - destruct (N.eqb k' k); auto.
  - destruct (N.eqb_spec k k0) as [<-|E]; simpl.
    + destruct (N.eqb k' k); auto.
    + rewrite IH. destruct (N.eqb_spec k' k) as [E'|]; auto. rewrite E'. apply N.eqb_neq in E. rewrite E. auto.
Qed.

Lemma getd_upd {V} k d (f : V -> V) l k' :
  getd k' d (upd k d f l) = if N.eqb k' k then f (getd k d l) else getd k' d l.
Proof. unfold getd at 1 3. rewrite get_upd. destruct (N.eqb k' k); auto. Qed.

Lemma get_None {V} k (l : list (N * V)) : get k l = None <-> ~ In k (keys l).
Proof.
  induction l as [|[k0 v] l IH]; simpl; [tauto|]. destruct (N.eqb_spec k k0) as [->|E].
  - split; [discriminate | intros H; exfalso; auto].
  - rewrite IH. split; [intros H [X|X]; auto | auto].
Qed.

Lemma get_In {V} k v (l : list (N * V)) : get k l = Some v -> In (k, v) l.
Proof.
  induction l as [|[k0 v0] l IH]; simpl; [discriminate|]. destruct (N.eqb_spec k k0) as [->|E]; auto.
  intros [= ->]; auto.
Qed.

Lemma In_get {V} {k v} {l : list (N * V)} : NoDup (keys l) -> In (k, v) l -> get k l = Some v.
Proof.
  induction l as [|[k0 v0] l IH]; simpl; intros ND H; [destruct H|]. apply NoDup_cons_iff in ND as [Hn ND].
  destruct H as [[= -> ->]|H]; [rewrite N.eqb_refl; auto|].
  destruct (N.eqb_spec k k0) as [->|E]; auto. contradiction Hn. apply (in_map fst _ _ H).
Qed.

Lemma keys_upd {V} k d (f : V -> V) l : keys (upd k d f l) = addN k (keys l).
Proof.
  unfold addN. induction l as [|[k0 v] l IH]; simpl; auto. destruct (N.eqb k k0); simpl; auto.
  rewrite IH. destruct (memN k (keys l)); auto.
Qed.
Lemma keys_upd_NoDup {V} k d (f : V -> V) l : NoDup (keys l) -> NoDup (keys (upd k d f l)).
Proof. rewrite keys_upd. apply addN_NoDup. Qed.

Lemma Forall_vals_upd {V} (P : V -> Prop) k d (f : V -> V) l :
  Forall P (vals l) -> P (f d) -> (forall v, P v -> P (f v)) -> Forall P (vals (upd k d f l)).
Proof.
  intros HF Hd Hf. induction l as [|[k0 v] l IH]; simpl.
  - constructor; auto.
  - inversion HF as [|? ? Hv HF']; subst. destruct (N.eqb k k0); simpl; constructor; auto.
Qed.

Lemma upd_nonempty {V} k d (f : V -> V) l : upd k d f l <> [].
Proof. destruct l as [|[k0 v] l]; simpl; [discriminate|]. destruct (N.eqb k k0); discriminate. Qed.

Lemma upd_ext {V} k d (f g : V -> V) l : (forall v, f v = g v) -> upd k d f l = upd k d g l.
Proof. intros H. induction l as [|[k0 v] l IH]; simpl; rewrite H, ?IH; auto. Qed.

Lemma upd_upd {V} k d (f g : V -> V) l : upd k d f (upd k d g l) = upd k d (fun v => f (g v)) l.
Proof.
  induction l as [|[k0 v] l IH]; simpl.
  - rewrite N.eqb_refl. auto.
  - destruct (N.eqb k k0) eqn:E; simpl; rewrite E; [auto | rewrite IH; auto].
Qed.

Lemma fold_upd_upd {V X} k d (f : X -> V -> V) l : forall g D,
  fold_left (fun D x => upd k d (f x) D) l (upd k d g D) = upd k d (fun v => fold_left (fun v x => f x v) l (g v)) D.
Proof. induction l as [|x l IH]; simpl; intros g D; auto. rewrite upd_upd. apply IH. Qed.

Lemma fold_upd_same {V X} k d (f : X -> V -> V) l : l <> [] ->
  forall F, (forall v, fold_left (fun v x => f x v) l v = F v) ->
  forall D, fold_left (fun D x => upd k d (f x) D) l D = upd k d F D.
Proof. intros Hne F HF D. destruct l as [|x l]; [congruence|]. simpl. rewrite fold_upd_upd. apply upd_ext, HF. Qed.

Lemma Forall_vals {V} {P : V -> Prop} {l k v} : Forall P (vals l) -> In (k, v) l -> P v.
Proof. intros HF H. rewrite Forall_forall in HF. apply HF. apply (in_map snd _ _ H). Qed.

Lemma NoDup_flat_keyed {X Y K} (kx : X -> K) (ky : Y -> K) (f : X -> list Y) l :
  NoDup (map kx l) -> (forall x y, In x l -> In y (f x) -> ky y = kx x) -> (forall x, In x l -> NoDup (f x)) ->
  NoDup (flat_map f l).
Proof.
  induction l as [|x l IH]; simpl; intros ND Hk H; [constructor|]. apply NoDup_cons_iff in ND as [Hn ND].
  apply NoDup_app. split; [|split]; auto.
  intros y Hy Hy'. apply in_flat_map in Hy' as [x' [Hx' Hy']]. apply Hn.
  rewrite <- (Hk x y), (Hk x' y); auto. apply in_map, Hx'.
Qed.

Definition wf_ts (ts : tset) : Prop := NoDup ts /\ ts <> [].
Definition wf_cl (cl : cluster) : Prop := NoDup (keys cl) /\ cl <> [] /\ Forall wf_ts (vals cl).
Definition wf_st (s : store) : Prop := NoDup (keys s) /\ Forall wf_cl (vals s).
Definition wf (a : aut) : Prop := wf_st (st a) /\ NoDup (fin a).

Lemma ins_wf t ts : NoDup ts -> wf_ts (ins t ts).
Proof.
  intros ND. split.
  - apply NoDup_snoc_unless, ND. apply memT_In.
  - intros E. apply (in_nil (a:=t)). rewrite <- E. apply In_ins. auto.
Qed.

Lemma upd_ins_wf a t cl : NoDup (keys cl) -> Forall wf_ts (vals cl) -> wf_cl (upd a [] (ins t) cl).
Proof.
  intros ND HF. split; [apply keys_upd_NoDup, ND|]. split; [apply upd_nonempty|].
  apply Forall_vals_upd; auto.
  - apply ins_wf. constructor.
  - intros v [Hv _]. apply ins_wf, Hv.
Qed.

Lemma add_rule_wf r s : wf_st s -> wf_st (add_rule r s).
Proof.
  intros [ND HF]. split; [apply keys_upd_NoDup, ND|]. apply Forall_vals_upd; auto.
  - apply upd_ins_wf; constructor.
  - intros v [Hk [_ Hv]]. apply upd_ins_wf; auto.
Qed.

Lemma contains_getd (s : store) r : contains s r = memT (ch r) (getd (V:=tset) (sym r) [] (getd (V:=cluster) (par r) [] s)).
Proof. unfold contains, getd. destruct (get (par r) s) as [cl|]; auto. destruct (get (sym r) cl); auto. Qed.

Lemma contains_add r r' s : contains (add_rule r s) r' = true <-> r = r' \/ contains s r' = true.
Proof.
  rewrite !contains_getd. unfold add_rule. rewrite getd_upd.
  destruct (N.eqb_spec (par r') (par r)) as [Ep|Ep]; [rewrite getd_upd, <- Ep; destruct (N.eqb_spec (sym r') (sym r)) as [Es|Es]|].
  - rewrite memT_In, In_ins, <- memT_In, <- Es. apply or_iff_compat_r.
    destruct r, r'; simpl in *; subst. split; congruence.
  - split; auto. intros [<-|H]; [congruence | exact H].
  - split; auto. intros [<-|H]; [congruence | exact H].
Qed.

Lemma In_citer q cl r : In r (citer q cl) <-> par r = q /\ exists ts, In (sym r, ts) cl /\ In (ch r) ts.
Proof.
  unfold citer. rewrite in_flat_map. split.
  - intros [[a ts] [He Hr]]. apply in_map_iff in Hr as [t [<- Ht]]. simpl. eauto.
  - intros [<- [ts [He Ht]]]. exists (sym r, ts). split; auto. apply in_map_iff. exists (ch r). destruct r; auto.
Qed.

Lemma In_iter s r : In r (iter s) <-> exists cl ts, In (par r, cl) s /\ In (sym r, ts) cl /\ In (ch r) ts.
Proof.
  unfold iter. rewrite in_flat_map. split.
  - intros [[q cl] [He Hr]]. simpl in Hr. apply In_citer in Hr as [<- [ts Hr]]. eauto.
  - intros [cl [ts [H1 H2]]]. exists (par r, cl). split; auto. apply In_citer. eauto.
Qed.

Theorem iter_contains s r : wf_st s -> (In r (iter s) <-> contains s r = true).
Proof.
  intros [ND HF]. rewrite In_iter. unfold contains. split.
  - intros [cl [ts [Hcl [Hts Ht]]]]. destruct (Forall_vals HF Hcl) as [NDc _].
    rewrite (In_get ND Hcl), (In_get NDc Hts). apply memT_In, Ht.
  - destruct (get (par r) s) as [cl|] eqn:Ecl; [|discriminate]. destruct (get (sym r) cl) as [ts|] eqn:Ets; [|discriminate].
    intros Ht. exists cl, ts. split; [apply get_In, Ecl|]. split; [apply get_In, Ets | apply memT_In, Ht].
Qed.

Lemma iter_add r s r' : wf_st s -> (In r' (iter (add_rule r s)) <-> r = r' \/ In r' (iter s)).
Proof. intros W. rewrite !iter_contains by auto using add_rule_wf. apply contains_add. Qed.

Lemma wf_down s q r : NoDup (keys s) -> (In r (down s q) <-> In r (iter s) /\ par r = q).
Proof.
  intros ND. rewrite In_iter. unfold down. split.
  - destruct (get q s) as [cl|] eqn:E; [|easy]. intros H. apply In_citer in H as [<- [ts H]].
    split; auto. exists cl, ts. split; [apply get_In, E | exact H].
  - intros [[cl [ts [Hcl H]]] <-]. rewrite (In_get ND Hcl). apply In_citer. eauto.
Qed.

Lemma citer_nodup q cl : wf_cl cl -> NoDup (citer q cl).
Proof.
  intros [ND [_ HF]]. apply (NoDup_flat_keyed fst sym); auto.
  - intros e r _ Hr. apply in_map_iff in Hr as [t [<- _]]. reflexivity.
  - intros [a ts] He. destruct (Forall_vals HF He) as [NDt _].
    apply (NoDup_map_inv ch). rewrite map_map, map_id. exact NDt.
Qed.

Theorem wf_iter_nodup s : wf_st s -> NoDup (iter s).
Proof.
  intros [ND HF]. apply (NoDup_flat_keyed fst par); auto.
  - intros e r _ Hr. apply In_citer in Hr as [E _]. exact E.
  - intros [q cl] He. apply citer_nodup, (Forall_vals HF He).
Qed.

Lemma wf_down_nodup s q : Forall wf_cl (vals s) -> NoDup (down s q).
Proof.
  intros HF. unfold down. destruct (get q s) as [cl|] eqn:E; [|constructor].
  apply citer_nodup, (Forall_vals HF (get_In _ _ _ E)).
Qed.

Lemma wf_no_empty s : wf_st s -> forall q cl, In (q, cl) s -> cl <> [] /\ forall a ts, In (a, ts) cl -> ts <> [].
Proof.
  intros [_ HF] q cl H. destruct (Forall_vals HF H) as [_ [Hne HFc]].
  split; auto. intros a ts Ha. apply (Forall_vals HFc Ha).
Qed.

Lemma wf_trans_empty s : wf_st s -> (trans_empty s = true <-> forall r, ~ In r (iter s)).
Proof.
  intros W. destruct s as [|[q cl] s]; simpl; [tauto|]. split; [discriminate|]. intros H. exfalso.
  destruct (wf_no_empty _ W q cl (or_introl eq_refl)) as [Hne Hts]. destruct cl as [|[a ts] cl]; [congruence|].
  specialize (Hts a ts (or_introl eq_refl)). destruct ts as [|t ts]; [congruence|].
  apply (H (mkrule q a t)). simpl. auto.
Qed.

Lemma init_wf : wf init. Proof. split; [split|]; constructor. Qed.

Lemma step_wf a o : wf a -> wf (step a o).
Proof.
  intros [Hs Hf]. destruct o; [split; simpl; auto .. | apply init_wf].
  - apply add_rule_wf, Hs.
  - apply addN_NoDup, Hf.
  - apply (fold_addN_NoDup (fun q => q)), Hf.
  - constructor.
Qed.

Theorem run_wf ops : wf (run ops).
Proof. apply (fold_left_inv _ wf); [intros a o _; apply step_wf | apply init_wf]. Qed.

Theorem contains_run ops r : contains (st (run ops)) r = true <-> In r (live ops).
Proof.
  apply (fold_left_rel (fun a L => contains (st a) r = true <-> In r L)); [|easy].
  intros a L o H. destruct o; simpl; auto; [|easy]. rewrite contains_add, H. split; intros [X|X]; auto.
Qed.

Theorem finals_run ops x : In x (fin (run ops)) <-> In x (livef ops).
Proof.
  apply (fold_left_rel (fun a L => In x (fin a) <-> In x L)); [|easy].
  intros a L o H. destruct o; simpl; auto; try easy.
  - rewrite In_addN, H. reflexivity.
  - rewrite (In_fold_addN (fun q => q)), map_id, in_app_iff, H. apply or_comm.
Qed.

Lemma live_snoc ops o : live (ops ++ [o]) = live_step (live ops) o.
Proof. apply fold_left_app. Qed.
Lemma livef_snoc ops o : livef (ops ++ [o]) = livef_step (livef ops) o.
Proof. apply fold_left_app. Qed.

Theorem live_spec ops r : In r (live ops) <-> exists l1 l2, ops = l1 ++ Add r :: l2 /\ ~ In Clear l2.
Proof.
  etransitivity; [apply (In_history (fun o => match o with Clear => true | _ => false end)
                                    (fun o => match o with Add r => [r] | _ => [] end)); intros l []; reflexivity|].
  split.
  - intros [l1 [o [l2 [-> [Hx H]]]]]. destruct o; simpl in Hx; try contradiction. destruct Hx as [->|[]].
    exists l1, l2. split; auto. apply Forall_cons_iff in H as [_ H]. rewrite Forall_forall in H. intros X. discriminate (H _ X).
  - intros [l1 [l2 [-> H]]]. exists l1, (Add r), l2. simpl. split; auto. split; auto. constructor; auto.
    apply Forall_forall. intros [] Ho; auto. contradiction.
Qed.

Theorem livef_spec ops q : In q (livef ops) <->
  exists l1 o l2, ops = l1 ++ o :: l2 /\ (o = SetFinal q \/ exists qs, o = SetFinals qs /\ In q qs) /\ ~ In Clear l2 /\ ~ In EraseFinals l2.
Proof.
  etransitivity; [apply (In_history (fun o => match o with Clear | EraseFinals => true | _ => false end)
                                    (fun o => match o with SetFinal q => [q] | SetFinals qs => qs | _ => [] end)); intros l []; reflexivity|].
  split.
  - intros [l1 [o [l2 [-> [Hx H]]]]]. exists l1, o, l2. split; auto.
    apply Forall_cons_iff in H as [_ H]. rewrite Forall_forall in H. split; [|split; intros X; discriminate (H _ X)].
    destruct o; simpl in Hx; try contradiction; [destruct Hx as [->|[]]; auto | eauto].
  - intros [l1 [o [l2 [-> [Ho [Hc He]]]]]]. exists l1, o, l2. split; auto. split; [|constructor].
    + destruct Ho as [->|[qs [-> Hq]]]; simpl; auto.
    + destruct Ho as [->|[qs [-> _]]]; auto.
    + apply Forall_forall. intros [] Ho'; auto; contradiction.
Qed.

Theorem iter_nodup ops : NoDup (iter (st (run ops))).
Proof. apply wf_iter_nodup, run_wf. Qed.

Theorem iter_complete ops r : In r (iter (st (run ops))) <-> In r (live ops).
Proof. rewrite iter_contains by apply run_wf. apply contains_run. Qed.

Theorem down_spec ops q r : In r (down (st (run ops)) q) <-> In r (live ops) /\ par r = q.
Proof. rewrite wf_down by apply run_wf. rewrite iter_complete. tauto. Qed.
Theorem down_nodup ops q : NoDup (down (st (run ops)) q).
Proof. apply wf_down_nodup, run_wf. Qed.

Theorem accept_trans_spec ops r : In r (accept_trans (run ops)) <-> In r (live ops) /\ In (par r) (livef ops).
Proof.
  unfold accept_trans. rewrite in_flat_map. split.
  - intros [q [Hq Hr]]. apply down_spec in Hr as [H <-]. split; auto. apply finals_run; auto.
  - intros [H1 H2]. exists (par r). split; [apply finals_run; auto | apply down_spec; auto].
Qed.
Theorem accept_trans_nodup ops : NoDup (accept_trans (run ops)).
Proof.
  apply (NoDup_flat_keyed (fun q => q) par).
  - rewrite map_id. apply run_wf.
  - intros q r _ Hr. apply down_spec in Hr. tauto.
  - intros q _. apply down_nodup.
Qed.

Theorem used_states_spec ops x : In x (used_states (run ops)) <->
  (exists r, In r (live ops) /\ (x = par r \/ In x (ch r))) \/ In x (livef ops).
Proof.
  unfold used_states. rewrite In_nodupN, in_app_iff, in_flat_map, finals_run.
  apply or_iff_compat_r. split; intros [r [Hr Hx]]; exists r; (split; [apply iter_complete; auto|]).
  - apply in_app_or in Hx as [Hx|[Hx|[]]]; auto.
  - apply in_or_app. destruct Hx as [->|Hx]; simpl; auto.
Qed.
Theorem used_states_nodup ops : NoDup (used_states (run ops)).
Proof. apply nodupN_NoDup. Qed.

Theorem trans_empty_spec ops : trans_empty (st (run ops)) = true <-> forall r, ~ In r (live ops).
Proof.
  rewrite wf_trans_empty by apply run_wf. split; intros H r Hr; apply (H r), iter_complete, Hr.
Qed.

(* the invariant the iterators' begin() dereferences rely on *)
Theorem no_empty_cluster ops : forall q cl, In (q, cl) (st (run ops)) ->
  cl <> [] /\ forall a ts, In (a, ts) cl -> ts <> [].
Proof. apply wf_no_empty, run_wf. Qed.

Lemma nodupRb_spec l : nodupRb l = true <-> NoDup l.
Proof.
  induction l as [|x l IH]; simpl; [split; auto; constructor|].
  rewrite NoDup_cons_iff. apply andb_iff; [apply negb_iff, memR_In | apply IH].
Qed.
Lemma nodupNb_spec l : nodupNb l = true <-> NoDup l.
Proof.
  induction l as [|x l IH]; simpl; [split; auto; constructor|].
  rewrite NoDup_cons_iff. apply andb_iff; [apply negb_iff, memN_In | apply IH].
Qed.

(* P describes the members of m, so that each gate's specification comes out in the words of its property *)
Lemma set_eq_members {X} (mem : X -> list X -> bool) : (forall x l, mem x l = true <-> In x l) ->
  forall (P : X -> Prop) l m, (forall x, In x m <-> P x) ->
  (forallb (fun x => mem x m) l = true /\ forallb (fun x => mem x l) m = true <-> forall x, In x l <-> P x).
Proof.
  intros Hmem P l m H. rewrite !forallb_forall. split.
  - intros [A B] x. rewrite <- H. split; intros Hx; apply Hmem; auto.
  - intros E. split; intros x Hx; apply Hmem; [apply H, E, Hx | apply E, H, Hx].
Qed.
Lemma set_eqR_members (P : rule -> Prop) l m : (forall r, In r m <-> P r) -> (set_eqR l m = true <-> forall r, In r l <-> P r).
Proof. intros H. unfold set_eqR. rewrite andb_true_iff. apply (set_eq_members memR memR_In), H. Qed.
Lemma set_eqN_members (P : N -> Prop) l m : (forall r, In r m <-> P r) -> (set_eqN l m = true <-> forall r, In r l <-> P r).
Proof. intros H. unfold set_eqN. rewrite andb_true_iff. apply (set_eq_members memN memN_In), H. Qed.
Lemma set_eqR_spec l m : set_eqR l m = true <-> forall r, In r l <-> In r m.
Proof. apply set_eqR_members. reflexivity. Qed.
Lemma set_eqN_spec l m : set_eqN l m = true <-> forall r, In r l <-> In r m.
Proof. apply set_eqN_members. reflexivity. Qed.

Theorem gate_iter_spec ops l : gate_iter ops l = true <-> NoDup l /\ forall r, In r l <-> In r (live ops).
Proof. apply andb_iff; [apply nodupRb_spec | apply set_eqR_spec]. Qed.

Theorem gate_contains_spec ops r b : gate_contains ops r b = true <-> (b = true <-> In r (live ops)).
Proof. apply eqb_true_spec, memR_In. Qed.

Theorem gate_accept_spec ops l : gate_accept ops l = true <->
  NoDup l /\ forall r, In r l <-> In r (live ops) /\ In (par r) (livef ops).
Proof.
  apply andb_iff; [apply nodupRb_spec | apply set_eqR_members]. intros r.
  rewrite filter_In. apply and_iff_compat_l, memN_In.
Qed.

Theorem gate_down_spec ops q l : gate_down ops q l = true <->
  NoDup l /\ forall r, In r l <-> In r (live ops) /\ par r = q.
Proof.
  apply andb_iff; [apply nodupRb_spec | apply set_eqR_members]. intros r.
  rewrite filter_In. apply and_iff_compat_l, N.eqb_eq.
Qed.

Theorem gate_finals_spec ops l : gate_finals ops l = true <-> NoDup l /\ forall q, In q l <-> In q (livef ops).
Proof. apply andb_iff; [apply nodupNb_spec | apply set_eqN_spec]. Qed.

Theorem gate_isfinal_spec ops q b : gate_isfinal ops q b = true <-> (b = true <-> In q (livef ops)).
Proof. apply eqb_true_spec, memN_In. Qed.

Theorem gate_used_spec ops l : gate_used ops l = true <->
  NoDup l /\ forall x, In x l <-> (exists r, In r (live ops) /\ (x = par r \/ In x (ch r))) \/ In x (livef ops).
Proof.
  apply andb_iff; [apply nodupNb_spec | apply set_eqN_members]. intros x.
  apply (states_in {| rules := live ops; finals := livef ops |}).
Qed.

Theorem gate_empty_spec ops b : gate_empty ops b = true <-> (b = true <-> forall r, ~ In r (live ops)).
Proof.
  apply eqb_true_spec. destruct (live ops) as [|r0 l]; simpl; [tauto|].
  split; [discriminate | intros H; destruct (H r0); auto].
Qed.

(* the model passes every gate (so an implementation that agrees with the model passes) *)
Theorem model_passes ops :
  gate_iter ops (iter (st (run ops))) = true /\
  (forall r, gate_contains ops r (contains (st (run ops)) r) = true) /\
  gate_accept ops (accept_trans (run ops)) = true /\
  (forall q, gate_down ops q (down (st (run ops)) q) = true) /\
  gate_finals ops (fin (run ops)) = true /\
  gate_used ops (used_states (run ops)) = true /\
  gate_empty ops (trans_empty (st (run ops))) = true.
Proof.
  split; [apply gate_iter_spec; split; [apply iter_nodup | apply iter_complete]|].
  split; [intros r; apply gate_contains_spec; apply contains_run|].
  split; [apply gate_accept_spec; split; [apply accept_trans_nodup | apply accept_trans_spec]|].
  split; [intros q; apply gate_down_spec; split; [apply down_nodup | apply down_spec]|].
  split; [apply gate_finals_spec; split; [apply run_wf | apply finals_run]|].
  split; [apply gate_used_spec; split; [apply used_states_nodup | apply used_states_spec]|].
  apply gate_empty_spec. apply trans_empty_spec.
Qed.

Theorem gate_iter_perm ops l : gate_iter ops l = true <-> Permutation l (iter (st (run ops))).
Proof.
  rewrite gate_iter_spec. split.
  - intros [ND H]. apply NoDup_Permutation; auto; [apply iter_nodup|]. intros r. rewrite H, iter_complete. tauto.
  - intros P. split.
    + apply (Permutation_NoDup (Permutation_sym P)), iter_nodup.
    + intros r. rewrite <- iter_complete. split; apply Permutation_in; auto. apply Permutation_sym; auto.
Qed.

Lemma countR_occ r l : countR r l = count_occ rule_eq_dec l r.
Proof.
  induction l as [|x l IH]; simpl; auto. destruct (rule_eq_dec x r) as [->|Hn].
  - rewrite rule_eqb_refl, IH. auto.
  - destruct (rule_eqb r x) eqn:E; [apply rule_eqb_eq in E; congruence | auto].
Qed.

Theorem same_multiset_spec l m : same_multiset l m = true <-> Permutation l m.
Proof.
  unfold same_multiset. rewrite forallb_forall, (Permutation_count_occ rule_eq_dec). split; intros H r.
  - destruct (in_dec rule_eq_dec r (l ++ m)) as [Hin|Hn].
    + rewrite <- !countR_occ. apply Nat.eqb_eq. auto.
    + rewrite in_app_iff in Hn. rewrite !(proj1 (count_occ_not_In rule_eq_dec _ r)); tauto.
  - intros _. apply Nat.eqb_eq. rewrite !countR_occ. auto.
Qed.
