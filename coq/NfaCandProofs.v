(* C10 — the breadth-first search of GetCandidateTree as repaired (NfaDefs.ncandidate): for every NFA
   the result is a sub-automaton, and it accepts some word whenever the operand does. That the structural
   fuel of the search (one more than the number of state occurrences) is never exhausted is the case fuel = 0 of
   `cand_bfs_spec`, which the invariant and the fuel inequality exclude. *)
From Coq Require Import List NArith Bool Lia.
Import ListNotations.
From V Require Import Sem Lang NfaDefs NfaProofs.

Section Cand.
Variable A : nfa.

Definition part (es : list edge) : nfa := {| nstarts := nstarts A; nfinals := []; edges := es |}.

Lemma part_mono es es' x : incl es es' -> nreachable (part es) x -> nreachable (part es') x.
Proof. intros Hi [p [w [Hp Hw]]]. exists p, w. split; auto. revert Hw. apply wpath_mono, Hi. Qed.

Lemma part_step es e : In e es -> nreachable (part es) (esrc e) -> nreachable (part es) (edst e).
Proof. intros He H. apply (nreachable_step _ _ (esym e) _ H). simpl. rewrite <- edge_eta. exact He. Qed.

Hypothesis no_final_start : forall s, In s (nstarts A) -> memN s (nfinals A) = false.

(* [todo]: the edges of the dequeued state that the scan has not looked at yet *)
Record BInv (todo : list edge) (seen queue : list N) (acc : list edge) : Prop := {
  b_starts : incl (nstarts A) seen;
  b_queue : incl queue seen;
  b_proc : forall s, In s seen -> In s queue \/
      (forall e, In e (edges A) -> esrc e = s -> In e todo \/ (In (edst e) seen /\ memN (edst e) (nfinals A) = false));
  b_reach : forall s, In s seen -> nreachable (part acc) s;
  b_acc : incl acc (edges A);
  b_nodup : NoDup seen;
  b_todo : forall e, In e todo -> nreachable (part acc) (edst e) }.

Lemma b_sub todo seen queue acc : BInv todo seen queue acc -> incl seen (nstates A).
Proof.
  intros I s Hs. destruct (b_reach _ _ _ _ I s Hs) as [p [w [Hp Hw]]].
  apply (wpath_end A w p); [apply nstates_start, Hp|]. revert Hw. apply wpath_mono, (b_acc _ _ _ _ I).
Qed.

Definition visit (q : N) (seen queue : list N) : list N * list N :=
  if memN q seen then (seen, queue) else (q :: seen, queue ++ [q]).

Lemma visit_len q seen queue :
  length (fst (visit q seen queue)) + length queue = length seen + length (snd (visit q seen queue)).
Proof. unfold visit. destruct (memN q seen); simpl; rewrite ?app_length; simpl; lia. Qed.

Lemma visit_inv e todo seen queue acc : BInv (e :: todo) seen queue acc -> memN (edst e) (nfinals A) = false ->
  BInv todo (fst (visit (edst e) seen queue)) (snd (visit (edst e) seen queue)) acc.
Proof.
  intros [Bstarts Bqueue Bproc Breach Bacc Bnodup Btodo] Ef.
  assert (Btodo' : forall e', In e' todo -> nreachable (part acc) (edst e')) by (intros e' He'; apply Btodo; right; exact He').
  unfold visit. destruct (memN (edst e) seen) eqn:Em; simpl; constructor.
  - exact Bstarts.
  - exact Bqueue.
  - apply memN_In in Em. intros s Hs. destruct (Bproc s Hs) as [Hq|Hp]; auto. right. intros e' He' Hsrc.
    destruct (Hp e' He' Hsrc) as [[<-|Hd]|Hd]; auto.
  - exact Breach.
  - exact Bacc.
  - exact Bnodup.
  - exact Btodo'.
  - apply incl_tl, Bstarts.
  - intros x Hx. apply in_app_or in Hx as [Hx|[<-|[]]]; [right; auto | left; auto].
  - intros s [<-|Hs]; [left; apply in_or_app; simpl; auto|].
    destruct (Bproc s Hs) as [Hq|Hp]; [left; apply in_or_app; auto | right]. intros e' He' Hsrc.
    destruct (Hp e' He' Hsrc) as [[<-|Hd]|[Hd Hf]]; simpl; auto.
  - intros s [<-|Hs]; auto. apply Btodo. left; auto.
  - exact Bacc.
  - constructor; auto. intros X. apply memN_In in X. congruence.
  - exact Btodo'.
Qed.

Lemma cand_scan_inv : forall todo seen queue acc r seen' queue',
  BInv todo seen queue acc -> cand_scan A todo seen queue = (r, (seen', queue')) ->
  length seen' + length queue = length seen + length queue' /\
  match r with
  | Some q => In q (nfinals A) /\ nreachable (part acc) q
  | None => BInv [] seen' queue' acc
  end.
Proof.
  induction todo as [|e todo IH]; intros seen queue acc r seen' queue' I H; simpl in H.
  - injection H as <- <- <-. auto.
  - change (if memN (edst e) seen then _ else _) with (visit (edst e) seen queue) in H.
    pose proof (visit_len (edst e) seen queue) as L. destruct (memN (edst e) (nfinals A)) eqn:Ef.
    + injection H as <- E. rewrite E in L. split; [exact L|]. split; [apply memN_In, Ef|].
      apply (b_todo _ _ _ _ I e). left; auto.
    + apply (IH _ _ acc) in H as [L' R]; [|apply visit_inv; auto]. split; [lia | exact R].
Qed.

Lemma closed_no_word seen acc : BInv [] seen [] acc -> forall w, ~ waccepts A w.
Proof.
  intros I w [p [q [Hp [Hq H]]]].
  apply (wpath_closed (fun x => In x seen /\ memN x (nfinals A) = false) A A) in H as [_ [_ Hf]].
  - apply memN_In in Hq. congruence.
  - intros x a y [Hx _] He. split; auto. destruct (b_proc _ _ _ _ I x Hx) as [[]|Hc].
    destruct (Hc (x, a, y) He eq_refl) as [[]|Hd]. exact Hd.
  - split; [apply (b_starts _ _ _ _ I), Hp | apply no_final_start, Hp].
Qed.

Lemma bfs_pop s seen rest acc : BInv [] seen (s :: rest) acc ->
  BInv (out_edges A s) seen rest (acc ++ out_edges A s).
Proof.
  intros [Bstarts Bqueue Bproc Breach Bacc Bnodup _]. assert (Hi : incl acc (acc ++ out_edges A s)) by apply incl_appl, incl_refl.
  constructor.
  - exact Bstarts.
  - intros x Hx. apply Bqueue. right; auto.
  - intros x Hx. destruct (Bproc x Hx) as [[<-|Hq]|Hp]; auto; right; intros e He Hsrc.
    + left. apply out_edges_in; auto.
    + destruct (Hp e He Hsrc) as [[]|Hd]. auto.
  - intros x Hx. apply (part_mono acc); auto.
  - apply incl_app; auto. intros e He. apply out_edges_in in He. tauto.
  - exact Bnodup.
  - intros e He. apply part_step; [apply in_or_app; auto|]. apply out_edges_in in He as [_ ->].
    apply (part_mono acc); auto. apply Breach, Bqueue. left; auto.
Qed.

Lemma cand_bfs_spec : forall fuel seen queue acc fs es,
  BInv [] seen queue acc -> S (length (nstates A)) + length queue <= fuel + length seen ->
  cand_bfs fuel A seen queue acc = (fs, es) ->
  incl es (edges A) /\
  ((exists q, fs = [q] /\ In q (nfinals A) /\ nreachable (part es) q) \/ (fs = [] /\ forall w, ~ waccepts A w)).
Proof.
  induction fuel as [|f IH]; intros seen queue acc fs es I Hc H.
  - exfalso. pose proof (NoDup_incl_length (b_nodup _ _ _ _ I) (b_sub _ _ _ _ I)). lia.
  - simpl in H. destruct queue as [|s rest].
    + injection H as <- <-. split; [apply (b_acc _ _ _ _ I)|]. right. split; auto. eapply closed_no_word; eauto.
    + destruct (cand_scan A (out_edges A s) seen rest) as [r [seen' queue']] eqn:Es.
      apply bfs_pop in I. apply (cand_scan_inv _ _ _ _ _ _ _ I) in Es as [L R]. destruct r as [q|].
      * injection H as <- <-. split; [apply (b_acc _ _ _ _ I)|]. left. exists q. exact (conj eq_refl R).
      * apply IH in H; auto. simpl in Hc. lia.
Qed.

Lemma raw_old_spec : let R := ncandidate_raw_old A in
  nfa_sub R A = true /\ ((exists w, waccepts A w) -> exists w, waccepts R w).
Proof.
  unfold ncandidate_raw_old.
  destruct (cand_bfs (S (length (nstates A))) A (nodup N.eq_dec (nstarts A)) (nodup N.eq_dec (nstarts A)) []) as [fs es] eqn:Eb.
  apply cand_bfs_spec in Eb as [Hsub Hres].
  - simpl. destruct Hres as [[q [-> [Hq [p [w [Hp Hw]]]]]]|[-> Hno]]; (split; [apply nfa_sub_spec; simpl|]).
    + split; [apply incl_refl|]. split; auto. intros x [<-|[]]; auto.
    + intros _. exists w. exists p, q. simpl. split; auto. split; auto.
      revert Hw. apply wpath_mono, incl_refl.
    + split; [apply incl_refl|]. split; auto. intros x [].
    + intros [w Hw]. destruct (Hno w Hw).
  - constructor.
    + intros x Hx. apply nodup_In; auto.
    + apply incl_refl.
    + intros s Hs. left; auto.
    + intros s Hs. apply nodup_In in Hs. exists s, []. simpl. auto.
    + intros x [].
    + apply NoDup_nodup.
    + intros x [].
  - lia.
Qed.

End Cand.

Lemma first_final_start_spec A : forall l done,
  match cand_first_final_start A l done with
  | Some (ss, s) => In s (nfinals A) /\ In s ss /\ incl ss (done ++ l)
  | None => forall s, In s l -> memN s (nfinals A) = false
  end.
Proof.
  induction l as [|x l IH]; intros done; simpl.
  - intros s [].
  - destruct (memN x (nfinals A)) eqn:Ef.
    + apply memN_In in Ef. split; auto. split; [apply in_or_app; right; simpl; auto|].
      intros y Hy. apply in_app_or in Hy as [Hy|[<-|[]]]; apply in_or_app; simpl; auto.
    + specialize (IH (done ++ [x])). rewrite <- app_assoc in IH.
      destruct (cand_first_final_start A l (done ++ [x])) as [[ss s]|]; auto. intros s [<-|Hs]; auto.
Qed.

Lemma raw_spec A : nfa_sub (ncandidate_raw A) A = true /\ ((exists w, waccepts A w) -> exists w, waccepts (ncandidate_raw A) w).
Proof.
  unfold ncandidate_raw. pose proof (first_final_start_spec A (nstarts A) []) as F.
  destruct (cand_first_final_start A (nstarts A) []) as [[ss s]|].
  - destruct F as [H2 [H3 H4]]. split.
    + apply nfa_sub_spec. simpl. split; auto. split; [intros x [<-|[]]; auto | intros x []].
    + intros _. exists []. exists s, s. simpl. auto.
  - apply raw_old_spec. exact F.
Qed.

Theorem ncandidate_correct A : ncandidate_ok A (ncandidate A) = true.
Proof.
  destruct (raw_spec A) as [H1 H2]. unfold ncandidate_ok, ncandidate. apply andb_true_iff. split.
  - eapply nfa_sub_trans; [apply nuseless_sub | exact H1].
  - apply implb_empty_spec. intros Hw. destruct (H2 Hw) as [w Hw']. exists w. apply nuseless_lang; auto.
Qed.

Theorem ncandidate_gate A : gate_ncandidate A (ncandidate A) = true.
Proof. apply ncandidate_ok_gate, ncandidate_correct. Qed.
