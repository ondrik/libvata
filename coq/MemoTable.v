(* C11 — a memo kept inside a shared (copy-on-write) table: a fact computed from the rules of an automaton ("every state is
   reachable", "the simulation relation", "the top-down view") is cached in the storage that copies share; it stays right exactly
   as long as EVERY path that changes the rules drops it. Model: handles point to tables (rows + memo); Copy shares the table;
   Add detaches (the private copy inherits the memo, which is right: same rows), appends and drops the memo; Query answers from the memo or computes and stores it. Theorem: for every sequence of these
   operations every answer is the function of the handle's VALUE (the plain list semantics). With one more operation that appends
   without dropping the memo (the raw insert used when a result is assembled from an operand's table) the theorem is refuted. *)
From Coq Require Import List NArith Arith Lia.
Import ListNotations.
From V Require Import ListAux.

Section Memo.
Variable F : list N -> bool.                                   (* the cached fact, any function of the rows *)

Definition table := (list N * option bool)%type.
Record st := { tabs : list table; hnd : list nat }.            (* handle h -> index of its table *)
Inductive op := Copy (h : nat) | Add (h : nat) (x : N) | AddRaw (h : nat) (x : N) | Query (h : nat).

Definition tab_of (s : st) (h : nat) : table := nth (nth h (hnd s) 0) (tabs s) ([], None).
Fixpoint set_nth {X} (l : list X) (i : nat) (x : X) : list X :=
  match l, i with [] , _ => [] | _ :: t, 0 => x :: t | y :: t, S j => y :: set_nth t j x end.

Definition detach (s : st) (h : nat) : st :=
  {| tabs := tabs s ++ [tab_of s h]; hnd := set_nth (hnd s) h (length (tabs s)) |}.
Definition write (s : st) (h : nat) (x : N) (keep_memo : bool) : st :=
  let s1 := detach s h in
  let i := nth h (hnd s1) 0 in
  let t := nth i (tabs s1) ([], None) in
  {| tabs := set_nth (tabs s1) i (fst t ++ [x], if keep_memo then snd t else None); hnd := hnd s1 |}.

Definition step (s : st) (o : op) : st * option bool :=
  match o with
  | Copy h => if Nat.ltb h (length (hnd s)) then ({| tabs := tabs s; hnd := hnd s ++ [nth h (hnd s) 0] |}, None) else (s, None)
  | Add h x => if Nat.ltb h (length (hnd s)) then (write s h x false, None) else (s, None)
  | AddRaw h x => if Nat.ltb h (length (hnd s)) then (write s h x true, None) else (s, None)
  | Query h =>
      if Nat.ltb h (length (hnd s)) then
        let i := nth h (hnd s) 0 in
        match snd (nth i (tabs s) ([], None)) with
        | Some b => (s, Some b)
        | None => let b := F (fst (nth i (tabs s) ([], None))) in
                  ({| tabs := set_nth (tabs s) i (fst (nth i (tabs s) ([], None)), Some b); hnd := hnd s |}, Some b)
        end
      else (s, None)
  end.

Definition vstep (v : list (list N)) (o : op) : list (list N) * option bool :=
  match o with
  | Copy h => if Nat.ltb h (length v) then (v ++ [nth h v []], None) else (v, None)
  | Add h x | AddRaw h x => if Nat.ltb h (length v) then (set_nth v h (nth h v [] ++ [x]), None) else (v, None)
  | Query h => if Nat.ltb h (length v) then (v, Some (F (nth h v []))) else (v, None)
  end.

Fixpoint run (s : st) (ops : list op) : st * list (option bool) :=
  match ops with [] => (s, []) | o :: r => let (s1, a) := step s o in let (s2, l) := run s1 r in (s2, a :: l) end.
Fixpoint vrun (v : list (list N)) (ops : list op) : list (list N) * list (option bool) :=
  match ops with [] => (v, []) | o :: r => let (v1, a) := vstep v o in let (v2, l) := vrun v1 r in (v2, a :: l) end.

Definition no_raw (ops : list op) : Prop := forall h x, ~ In (AddRaw h x) ops.

Definition Rep (s : st) (v : list (list N)) : Prop :=
  length (hnd s) = length v /\
  (forall h, h < length v -> nth h (hnd s) 0 < length (tabs s) /\ fst (tab_of s h) = nth h v []) /\
  (forall i b, i < length (tabs s) -> snd (nth i (tabs s) ([], None)) = Some b -> b = F (fst (nth i (tabs s) ([], None)))).

Lemma set_nth_length {X} (l : list X) i x : length (set_nth l i x) = length l.
Proof. revert i. induction l as [|y l IH]; intros [|i]; simpl; auto. Qed.
Lemma nth_set_nth_eq {X} (l : list X) i x d : i < length l -> nth i (set_nth l i x) d = x.
Proof. revert i. induction l as [|y l IH]; intros [|i] H; simpl in *; try lia; auto. apply IH. lia. Qed.
Lemma nth_set_nth_neq {X} (l : list X) i j x d : i <> j -> nth j (set_nth l i x) d = nth j l d.
Proof. revert i j. induction l as [|y l IH]; intros [|i] [|j] H; simpl; auto; try congruence. Qed.
Lemma set_nth_app_last {X} (l : list X) t t' : set_nth (l ++ [t]) (length l) t' = l ++ [t'].
Proof. induction l as [|y l IH]; simpl; auto. rewrite IH. reflexivity. Qed.

Lemma Forall2_set_nth {X Y} (P : X -> Y -> Prop) l m i x y : Forall2 P l m -> P x y -> Forall2 P (set_nth l i x) (set_nth m i y).
Proof. intros H Hxy. revert i. induction H; intros [|i]; simpl; constructor; auto. Qed.
Lemma Forall_set_nth {X} (Q : X -> Prop) l i x : Forall Q l -> Q x -> Forall Q (set_nth l i x).
Proof. intros H Hx. revert i. induction H; intros [|i]; simpl; constructor; auto. Qed.

Lemma write_tabs s h x k : h < length (hnd s) ->
  tabs (write s h x k) = tabs s ++ [(fst (tab_of s h) ++ [x], if k then snd (tab_of s h) else None)] /\
  hnd (write s h x k) = set_nth (hnd s) h (length (tabs s)).
Proof.
  intros Hh. unfold write, detach. cbn [tabs hnd]. rewrite (nth_set_nth_eq (hnd s) h (length (tabs s)) 0 Hh).
  rewrite nth_middle, set_nth_app_last. split; reflexivity.
Qed.

Definition points (ts : list table) (i : nat) (l : list N) : Prop := i < length ts /\ fst (nth i ts ([], None)) = l.
Definition memo_ok (t : table) : Prop := forall b, snd t = Some b -> b = F (fst t).

Definition RepL (s : st) (v : list (list N)) : Prop := Forall2 (points (tabs s)) (hnd s) v /\ Forall memo_ok (tabs s).

Lemma Rep_Forall s v : Rep s v <-> RepL s v.
Proof.
  split.
  - intros [HL [HH HM]]. split; [exact (Forall2_of_nth _ _ _ 0 [] HL HH)|].
    apply Forall_forall. intros t Ht. destruct (In_nth _ _ ([], None) Ht) as [i [Hi <-]]. intros b. apply HM, Hi.
  - intros [H2 HF]. pose proof (Forall2_length _ _ _ H2) as HL. split; [exact HL|]. split.
    + intros h Hh. apply (Forall2_nth _ _ _ 0 [] h H2). rewrite HL. exact Hh.
    + intros i b Hi. exact (proj1 (Forall_nth _ _) HF i _ Hi b).
Qed.

Lemma points_app ts t i l : points ts i l -> points (ts ++ [t]) i l.
Proof. intros [Hi E]. split; [rewrite app_length; apply Nat.lt_lt_add_r, Hi | rewrite app_nth1 by exact Hi; exact E]. Qed.
Lemma points_last ts t : points (ts ++ [t]) (length ts) (fst t).
Proof. split; [rewrite app_length, Nat.add_1_r; apply Nat.lt_succ_diag_r | rewrite nth_middle; reflexivity]. Qed.
Lemma points_set_memo ts i b j l : points ts j l -> points (set_nth ts i (fst (nth i ts ([], None)), b)) j l.
Proof.
  intros [Hj E]. split; [rewrite set_nth_length; exact Hj|]. rewrite <- E.
  destruct (Nat.eq_dec i j) as [<-|Hne]; [rewrite nth_set_nth_eq by exact Hj | rewrite nth_set_nth_neq by exact Hne]; reflexivity.
Qed.

Lemma step_rep s v o : RepL s v -> (forall h x, o <> AddRaw h x) ->
  RepL (fst (step s o)) (fst (vstep v o)) /\ snd (step s o) = snd (vstep v o).
Proof.
  intros [H2 HF] Hno. pose proof (Forall2_length _ _ _ H2) as HL.
  destruct o as [h|h x|h x|h]; [| |destruct (Hno h x eq_refl)|]; unfold step, vstep; rewrite <- HL;
    (destruct (Nat.ltb_spec h (length (hnd s))) as [Hh|Hh]; [|split; [split; assumption | reflexivity]]);
    pose proof (Forall2_nth _ _ _ 0 [] h H2 Hh) as P.
  - split; [|reflexivity]. split; [|exact HF]. apply Forall2_app; [exact H2|]. constructor; [exact P|constructor].
  - destruct (write_tabs s h x false Hh) as [ET EH]. destruct P as [_ E].
    split; [|reflexivity]. unfold RepL, tab_of in *. cbn [fst]. rewrite ET, EH, E. split.
    + apply Forall2_set_nth; [|apply points_last]. apply (Forall2_impl (points (tabs s))); [|exact H2]. intros i l. apply points_app.
    + apply Forall_app. split; [exact HF|]. constructor; [|constructor]. intros b. discriminate.
  - destruct P as [Hi E]. cbv zeta. rewrite <- E.
    destruct (snd (nth (nth h (hnd s) 0) (tabs s) ([], None))) as [b|] eqn:Em.
    + split; [split; assumption|]. cbn [snd]. rewrite (proj1 (Forall_nth _ _) HF _ _ Hi b Em). reflexivity.
    + split; [|reflexivity]. split; cbn [fst tabs hnd].
      * apply (Forall2_impl (points (tabs s))); [|exact H2]. intros j l. apply points_set_memo.
      * apply Forall_set_nth; [exact HF|]. intros b [= <-]. reflexivity.
Qed.

Theorem memo_sound : forall ops s v, Rep s v -> no_raw ops -> snd (run s ops) = snd (vrun v ops).
Proof.
  intros ops s v HR. apply Rep_Forall in HR. revert s v HR.
  induction ops as [|o ops IH]; intros s v HR Hno; simpl; auto.
  destruct (step_rep s v o HR) as [HR' Ea]; [intros h x ->; apply (Hno h x); left; reflexivity|].
  destruct (step s o) as [s1 a], (vstep v o) as [v1 a']. simpl in HR', Ea.
  specialize (IH s1 v1 HR'). destruct (run s1 ops), (vrun v1 ops). simpl in *. rewrite Ea, IH; auto.
  intros h x Hin. apply (Hno h x). right. exact Hin.
Qed.

Definition init_st : st := {| tabs := [([], None)]; hnd := [0] |}.
Lemma init_rep : Rep init_st [[]].
Proof. apply Rep_Forall. split; repeat constructor. intros b [=]. Qed.
Theorem memo_sound_init ops : no_raw ops -> snd (run init_st ops) = snd (vrun [[]] ops).
Proof. apply memo_sound, init_rep. Qed.
End Memo.

Definition is_nil (l : list N) : bool := match l with [] => true | _ => false end.
Theorem memo_raw_refuted :
  let ops := [Query 0; AddRaw 0 7%N; Query 0] in
  snd (run is_nil (init_st) ops) = [Some true; None; Some true] /\ snd (vrun is_nil [[]] ops) = [Some true; None; Some false].
Proof. vm_compute. split; reflexivity. Qed.
Example memo_add_example :
  snd (run is_nil (init_st) [Query 0; Copy 0; Add 0 7%N; Query 0; Query 1]) = [Some true; None; None; Some false; Some true].
Proof. vm_compute. reflexivity. Qed.
