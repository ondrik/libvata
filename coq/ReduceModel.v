(* C05 — the complete functional model of Reduce: the downward simulation computed by refinement from the full relation,
   a canonical representative per class of mutually similar states, collapse, prune. Unconditional theorem: same language. *)
From Coq Require Import List NArith Bool Arith.
Import ListNotations.
From V Require Import ListAux Gfp Sem Prod TrimProofs Lang BinopDefs BinopProofs ReduceDefs ReduceProofs.

Definition canon_rep (A : ta) (q : N) : N :=
  let D := down_sim_rel A in
  match find (fun s => relb D q s && relb D s q) (ustates A) with Some s => s | None => q end.
Definition reduce_model (A : ta) : ta := reduce_with (canon_rep A) A.

Lemma is_down_simb_reach A D : is_down_simb A D = true -> forall t q, reach A t q -> forall r, In (q, r) D -> reach A t r.
Proof. intros H. apply sim_reach, is_down_simb_spec, H. Qed.

Lemma all2_mono D D' : incl D D' -> forall qs rs, all2 D qs rs = true -> all2 D' qs rs = true.
Proof. intros H qs rs. rewrite !all2_spec. apply Forall2_impl. intros q r. apply H. Qed.
Lemma down_keep_mono A R R' x : incl R R' -> down_keep A R x = true -> down_keep A R' x = true.
Proof.
  intros H. unfold down_keep. rewrite !forallb_forall. intros K rq Hrq. specialize (K rq Hrq).
  apply orb_true_iff in K as [K|K]; apply orb_true_iff; [left; auto | right].
  apply existsb_exists in K as [rr [Hrr E]]. apply existsb_exists. exists rr. split; auto.
  apply andb_true_iff in E as [E1 E2]. rewrite E1. simpl. eapply all2_mono; eauto.
Qed.

Theorem down_sim_rel_is_sim A : is_down_simb A (down_sim_rel A) = true.
Proof.
  unfold is_down_simb, down_sim_rel. cbv zeta. apply forallb_forall.
  apply (refine_fixed pr (down_keep A)). apply Nat.lt_succ_diag_r.
Qed.

Lemma all2_refl D qs : (forall q, In q qs -> In (q, q) D) -> all2 D qs qs = true.
Proof. induction qs as [|q qs IH]; simpl; intros H; auto. rewrite (proj2 (relb_spec D q q)) by (apply H; left; auto). simpl. apply IH. intros; apply H; right; auto. Qed.

Theorem down_sim_rel_refl A q : In q (states A) -> In (q, q) (down_sim_rel A).
Proof.
  intros Hq. unfold down_sim_rel.
  set (U := list_prod (ustates A) (ustates A)).
  set (Id := map (fun q => (q, q)) (ustates A)).
  assert (HI : incl Id (refine pr (down_keep A) (S (length U)) U)).
  { apply (refine_greatest pr (down_keep A) (down_keep_mono A)).
    - intros x Hx. apply in_map_iff in Hx as [s [<- Hs]]. apply in_prod; auto.
    - intros x Hx. apply in_map_iff in Hx as [s [<- Hs]]. unfold down_keep. apply forallb_forall. intros rq Hrq. simpl.
      destruct (N.eqb_spec (par rq) s) as [E|NE]; simpl; auto. apply existsb_exists. exists rq. split; auto.
      rewrite E, !N.eqb_refl. simpl. apply all2_refl. intros c Hc. apply in_map_iff. exists c. split; auto.
      apply ustates_in. apply (rule_states A rq Hrq); auto. }
  apply HI. apply in_map_iff. exists q. split; auto. apply ustates_in; auto.
Qed.

Theorem canon_rep_valid A : valid_repb A (down_sim_rel A) (canon_rep A) = true.
Proof.
  unfold valid_repb. apply forallb_forall. intros q Hq. unfold canon_rep.
  destruct (find _ (ustates A)) as [s|] eqn:E.
  - apply find_some in E as [_ E]. apply andb_true_iff in E. apply andb_true_iff. tauto.
  - exfalso. pose proof (find_none _ _ E q (proj2 (ustates_in A q) Hq)) as F. simpl in F.
    assert (R : relb (down_sim_rel A) q q = true) by (apply relb_spec, down_sim_rel_refl; auto).
    rewrite R in F. discriminate.
Qed.

Theorem reduce_model_lang A : leq (reduce_model A) A.
Proof. apply (reduce_lang A (down_sim_rel A) (canon_rep A)); [apply down_sim_rel_is_sim | apply canon_rep_valid]. Qed.

Theorem reduce_model_gate A : reduce_gate A (reduce_model A) = true.
Proof.
  assert (HD : is_down_sim A (down_sim_rel A)) by (apply is_down_simb_spec, down_sim_rel_is_sim).
  assert (HV : valid_rep A (down_sim_rel A) (canon_rep A)) by (apply valid_repb_spec, canon_rep_valid).
  apply reduce_gate_spec. unfold reduce_model.
  split; [apply reduce_model_lang|]. split; [apply reduce_states_le|]. split; [apply reduce_rules_le|].
  intros s Hs. destruct (reduce_onto _ _ _ Hs) as [q [Hq ->]]. exists q. split; [exact Hq|].
  intros t. split.
  - intros R. unfold reduce_with in R.
    assert (R' : reach (image (canon_rep A) A) t (canon_rep A q)) by (revert R; apply reach_mono; apply unreach_rules_sub).
    apply (quot_reach A (down_sim_rel A) (canon_rep A) HD HV) in R'.
    eapply sim_reach; [exact HD | exact R' | apply (HV q Hq)].
  - intros R. unfold reduce_with. apply unreach_reach; [apply reach_image; auto|].
    apply unreach_td_back. apply unreach_post. exact Hs.
Qed.
