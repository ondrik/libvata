(* C02 — how Intersection / IntersectionBU number the states of the product (src/explicit_tree_isect.cc,
   src/explicit_tree_isect_bu.cc): a translation map from pairs to numbers; a pair that is looked up and not found gets the
   number `size of the map` and is appended. Invariant over EVERY sequence of look-ups: the numbers in the map are 0 .. n-1 in
   order of discovery, the keys are distinct, so the map is injective both ways and an entry, once handed out, never changes.
   The same map with an erase operation ("drop dead pairs from the private map") hands one number out twice: refuted by a
   closed witness. *)
From Coq Require Import List NArith Bool Arith FinFun.
Import ListNotations.
From V Require Import ListAux.

Definition pmap := list (N * N * N).                       (* ((p, q), number), in order of discovery *)
Definition key_eqb (p q : N) (e : N * N * N) : bool := N.eqb (fst (fst e)) p && N.eqb (snd (fst e)) q.
Definition pm_find (m : pmap) (p q : N) : option N := option_map snd (find (key_eqb p q) m).
Definition pm_get (m : pmap) (p q : N) : pmap * N :=
  match pm_find m p q with
  | Some k => (m, k)
  | None => (m ++ [((p, q), N.of_nat (length m))], N.of_nat (length m))
  end.
Definition pm_run (ops : list (N * N)) (m : pmap) : pmap := fold_left (fun m pq => fst (pm_get m (fst pq) (snd pq))) ops m.

Inductive pop := Get (p q : N) | Erase (p q : N).
Definition pm_erase (m : pmap) (p q : N) : pmap := filter (fun e => negb (key_eqb p q e)) m.
Definition pm_step (st : pmap * list (N * N * N)) (o : pop) : pmap * list (N * N * N) :=
  match o with
  | Get p q => let r := pm_get (fst st) p q in (fst r, snd st ++ [((p, q), snd r)])       (* second component: every answer handed out *)
  | Erase p q => (pm_erase (fst st) p q, snd st)
  end.
Definition pm_run_e (ops : list pop) : pmap * list (N * N * N) := fold_left pm_step ops ([], []).

Definition dense (m : pmap) : Prop := map snd m = map N.of_nat (seq 0 (length m)).
Definition keys_nodup (m : pmap) : Prop := NoDup (map fst m).

Lemma key_eqb_spec p q e : key_eqb p q e = true <-> fst e = (p, q).
Proof. destruct e as [[a b] k]. unfold key_eqb. simpl. rewrite andb_true_iff, !N.eqb_eq. split; [intros [-> ->]; auto | intros E; inversion E; auto]. Qed.

Lemma pm_find_some m p q k : pm_find m p q = Some k -> In ((p, q), k) m.
Proof.
  unfold pm_find. destruct (find (key_eqb p q) m) as [e|] eqn:E; simpl; [|discriminate]. intros H. inversion H; subst.
  apply find_some in E as [Hin Hk]. apply key_eqb_spec in Hk. destruct e as [pq k]. simpl in *. subst. auto.
Qed.
Lemma pm_find_none m p q : pm_find m p q = None -> ~ In (p, q) (map fst m).
Proof.
  unfold pm_find. destruct (find (key_eqb p q) m) as [e|] eqn:E; simpl; [discriminate|]. intros _ Hin.
  apply in_map_iff in Hin as [e [He Hin]]. pose proof (find_none _ _ E e Hin) as X. apply key_eqb_spec in He. congruence.
Qed.

Lemma dense_get m p q : dense m -> dense (fst (pm_get m p q)).
Proof.
  unfold pm_get. destruct (pm_find m p q); simpl; auto. unfold dense. intros H.
  rewrite map_app, app_length, H. simpl. rewrite Nat.add_1_r, seq_S, map_app. reflexivity.
Qed.
Lemma keys_get m p q : keys_nodup m -> keys_nodup (fst (pm_get m p q)).
Proof.
  unfold pm_get. destruct (pm_find m p q) eqn:E; simpl; auto. unfold keys_nodup. intros H.
  rewrite map_app. simpl. apply NoDup_snoc; auto. apply pm_find_none; auto.
Qed.

Lemma get_stable m p q e : In e m -> In e (fst (pm_get m p q)).
Proof. unfold pm_get. destruct (pm_find m p q); simpl; auto. intros H. apply in_app_iff; auto. Qed.
Lemma get_answer m p q : In ((p, q), snd (pm_get m p q)) (fst (pm_get m p q)).
Proof.
  unfold pm_get. destruct (pm_find m p q) eqn:E; simpl; [apply pm_find_some; auto|]. apply in_app_iff. right. left. auto.
Qed.

Lemma run_stable ops : forall m, incl m (pm_run ops m).
Proof. induction ops as [|[p q] ops IH]; intros m; simpl; [apply incl_refl|]. intros e He. apply IH, get_stable, He. Qed.

Lemma dense_nodup m : dense m -> NoDup (map snd m).
Proof. unfold dense. intros ->. apply FinFun.Injective_map_NoDup; [intros x y; apply Nat2N.inj | apply seq_NoDup]. Qed.

Lemma run_inv_empty ops : dense (pm_run ops []) /\ keys_nodup (pm_run ops []).
Proof. unfold pm_run. split; apply fold_left_inv; [intros m pq _; apply dense_get | reflexivity | intros m pq _; apply keys_get | constructor]. Qed.

Theorem numbering_inj_number ops e1 e2 : In e1 (pm_run ops []) -> In e2 (pm_run ops []) -> snd e1 = snd e2 -> e1 = e2.
Proof. apply nodup_map_inj, dense_nodup, run_inv_empty. Qed.
Theorem numbering_inj_key ops e1 e2 : In e1 (pm_run ops []) -> In e2 (pm_run ops []) -> fst e1 = fst e2 -> e1 = e2.
Proof. apply nodup_map_inj, run_inv_empty. Qed.
Theorem numbering_stable ops1 ops2 p q :
  In ((p, q), snd (pm_get (pm_run ops1 []) p q)) (pm_run (ops1 ++ (p, q) :: ops2) []).
Proof. unfold pm_run at 2. rewrite fold_left_app. apply (run_stable ops2), get_answer. Qed.

Theorem numbering_erase_refuted :
  let r := pm_run_e [Get 0 0; Get 1 1; Erase 0 0; Get 2 2] in
  In ((1, 1), 1)%N (snd r) /\ In ((2, 2), 1)%N (snd r) /\ In ((1, 1), 1)%N (fst r) /\ In ((2, 2), 1)%N (fst r).
Proof. vm_compute. repeat split; auto. Qed.
