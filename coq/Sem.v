(* Semantics shared by all tree properties: trees, rules, automata, bottom-up runs and
   induction on them; verified evaluator. *)
From Coq Require Import List NArith Bool.
Import ListNotations.
From V Require Import ListAux.

Inductive tree := Node (f : N) (ts : list tree).

Section TreeInd.
  Variable P : tree -> Prop.
  Hypothesis H : forall f ts, Forall P ts -> P (Node f ts).
  Fixpoint tree_ind' (t : tree) : P t :=
    match t with Node f ts =>
      H f ts ((fix go (l : list tree) : Forall P l :=
                 match l with [] => Forall_nil _ | x :: r => Forall_cons _ (tree_ind' x) (go r) end) ts)
    end.
End TreeInd.

Record rule := { sym : N; ch : list N; par : N }.
Record ta := { rules : list rule; finals : list N }.

Inductive reach (A : ta) : tree -> N -> Prop :=
| reach_node f ts r : In r (rules A) -> sym r = f -> Forall2 (reach A) ts (ch r) -> reach A (Node f ts) (par r).

Definition accepts A t := exists q, In q (finals A) /\ reach A t q.

Definition memN (x : N) (l : list N) : bool := existsb (N.eqb x) l.
Lemma memN_In x l : memN x l = true <-> In x l.
Proof. exact (existsb_eqb N.eqb N.eqb_eq x l). Qed.

Lemma memN_false x l : memN x l = false <-> ~ In x l.
Proof. rewrite <- memN_In. destruct (memN x l); split; congruence. Qed.

Fixpoint matches (qs : list N) (css : list (list N)) : bool :=
  match qs, css with
  | [], [] => true
  | q :: qs', cs :: css' => memN q cs && matches qs' css'
  | _, _ => false
  end.

Fixpoint eval (A : ta) (t : tree) : list N :=
  match t with Node f ts =>
    let css := map (eval A) ts in
    flat_map (fun r => if N.eqb (sym r) f && matches (ch r) css then [par r] else []) (rules A)
  end.

Lemma matches_spec : forall qs Ss, matches qs Ss = true <-> Forall2 (fun q S => In q S) qs Ss.
Proof.
  induction qs as [|q qs IH]; intros [|S Ss]; simpl; try (split; [discriminate | intros H; inversion H]).
  - split; auto.
  - rewrite andb_true_iff, memN_In, IH. split; [intros []; auto | intros H; inversion H; auto].
Qed.

Lemma reach_inv A f ts q : reach A (Node f ts) q <->
  exists r, In r (rules A) /\ sym r = f /\ Forall2 (reach A) ts (ch r) /\ par r = q.
Proof.
  split.
  - intros R. inversion R; subst; eauto.
  - intros (r & Hr & Hs & F & <-). constructor; auto.
Qed.

Lemma reach_intro A r f ts q : In r (rules A) -> sym r = f -> par r = q -> Forall2 (reach A) ts (ch r) -> reach A (Node f ts) q.
Proof. intros Hr Hs <- F. constructor; auto. Qed.

Lemma reach_ind' (A : ta) (P : tree -> N -> Prop) :
  (forall f ts r, In r (rules A) -> sym r = f -> Forall2 (reach A) ts (ch r) -> Forall2 P ts (ch r) -> P (Node f ts) (par r)) ->
  forall t q, reach A t q -> P t q.
Proof.
  intros H. induction t as [f ts IH] using tree_ind'. intros q R.
  apply reach_inv in R as (r & Hr & Hs & F & <-). apply H; auto.
  clear Hr. induction F; inversion IH; subst; constructor; auto.
Qed.

Lemma matches_eval A : forall ts qs,
  Forall (fun t => forall q, In q (eval A t) <-> reach A t q) ts ->
  (matches qs (map (eval A) ts) = true <-> Forall2 (reach A) ts qs).
Proof.
  induction ts as [|t ts IH]; intros [|q qs] HF; simpl; try (split; [discriminate | intros X; inversion X]).
  - split; auto.
  - inversion HF as [|? ? Ht Hts]; subst. rewrite andb_true_iff, memN_In, Ht, (IH qs Hts).
    split; [intros []; auto | intros X; inversion X; auto].
Qed.

Lemma eval_in A f ts p : In p (eval A (Node f ts)) <->
  exists r, In r (rules A) /\ sym r = f /\ matches (ch r) (map (eval A) ts) = true /\ par r = p.
Proof.
  simpl. rewrite in_flat_map. split.
  - intros [r [Hr Hp]]. destruct (N.eqb_spec (sym r) f) as [E|]; [|destruct Hp].
    destruct (matches _ _) eqn:M; [|destruct Hp]. destruct Hp as [<-|[]]. eauto.
  - intros (r & Hr & <- & M & <-). exists r. rewrite N.eqb_refl, M. simpl; auto.
Qed.

Theorem eval_spec A : forall t q, In q (eval A t) <-> reach A t q.
Proof.
  induction t as [f ts IH] using tree_ind'. intros q. rewrite eval_in, reach_inv.
  split; intros (r & Hr & Hs & M & Hp); exists r; apply (matches_eval A ts (ch r) IH) in M; auto.
Qed.

Lemma reach_dec A t q : {reach A t q} + {~ reach A t q}.
Proof. destruct (in_dec N.eq_dec q (eval A t)) as [H|H]; [left | right]; rewrite <- eval_spec; auto. Qed.
