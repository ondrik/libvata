(* C18 (and the equality clause of C17) — proofs about the store-level model of MtbddStoreDefs.v.

   Core s X   the invariant with a multiset X of counted references held outside the store:
              reference counter = number of referrers (roots of live objects, children of nodes, X);
              both unique tables are exactly the inverse of the heap; fresh addresses; children were
              allocated before their parents; every node denotes a well-formed diagram (hence no
              dangling child); every object's root denotes its ghost diagram.
   Inv s      Core s [] and every node has a positive counter (no garbage).
   step_ok    every valid step runs without fault and preserves Inv; other objects are untouched;
              the deleted nodes are distinct, were in the heap and are gone; no address is used twice. *)
From Coq Require Import List Arith Lia.
From V Require Import ListAux MtbddDefs MtbddProofs MtbddStoreDefs.
Import ListNotations.

Section AMAPP.
Variables K A : Type.
Variable eqd : forall a b : K, {a = b} + {a <> b}.
Notation lookup := (lookup eqd).
Notation remove_key := (remove_key eqd).
Notation update := (update eqd).
Implicit Types m : list (K * A).

Lemma lookup_in m k a : lookup m k = Some a -> In (k, a) m.
Proof. induction m as [|[k' a'] r IH]; simpl; [discriminate|]. destruct (eqd k k'); [intros [= ->]; subst; auto|auto]. Qed.
Lemma lookup_none m k : lookup m k = None <-> ~ In k (map fst m).
Proof.
  induction m as [|[k' a'] r IH]; simpl; [tauto|]. destruct (eqd k k').
  - split; [discriminate|]. intros H. exfalso. apply H. auto.
  - rewrite IH. split; intros H; [intros [E|E]; [congruence|auto] | auto].
Qed.
Lemma lookup_some_key m k a : lookup m k = Some a -> In k (map fst m).
Proof. intros H. exact (in_map fst m (k, a) (lookup_in m k a H)). Qed.
Lemma in_lookup m k a : NoDup (map fst m) -> In (k, a) m -> lookup m k = Some a.
Proof.
  induction m as [|[k' a'] r IH]; simpl; [tauto|]. intros ND [E|E].
  - injection E as -> ->. destruct (eqd k k); congruence.
  - apply NoDup_cons_iff in ND as [N ND]. destruct (eqd k k'); auto. subst. destruct N. exact (in_map fst _ _ E).
Qed.
Lemma lookup_remove m k k' : lookup (remove_key m k) k' = if eqd k' k then None else lookup m k'.
Proof.
  induction m as [|[k2 a2] r IH]; simpl; [destruct (eqd k' k); reflexivity|].
  destruct (eqd k k2); simpl; destruct (eqd k' k2); destruct (eqd k' k); congruence.
Qed.
Lemma lookup_update m k k' f : lookup (update m k f) k' = if eqd k' k then option_map f (lookup m k') else lookup m k'.
Proof.
  induction m as [|[k2 a2] r IH]; simpl; [destruct (eqd k' k); reflexivity|].
  destruct (eqd k k2); simpl; destruct (eqd k' k2); destruct (eqd k' k); simpl; congruence.
Qed.
Lemma keys_update m k f : map fst (update m k f) = map fst m.
Proof. induction m as [|[k' a'] r IH]; simpl; auto. destruct (eqd k k'); simpl; congruence. Qed.
Lemma remove_update m k f : remove_key (update m k f) k = remove_key m k.
Proof. induction m as [|[k' a'] r IH]; simpl; auto. destruct (eqd k k') eqn:Q; simpl; rewrite Q; congruence. Qed.
Lemma nodup_remove m k : NoDup (map fst m) -> NoDup (map fst (remove_key m k)).
Proof.
  induction m as [|[k' a'] r IH]; simpl; auto. intros ND. apply NoDup_cons_iff in ND as [N ND]. destruct (eqd k k'); auto.
  simpl. constructor; auto. rewrite <- lookup_none, lookup_remove. destruct (eqd k' k); auto. apply lookup_none, N.
Qed.
Lemma remove_absent m k : ~ In k (map fst m) -> remove_key m k = m.
Proof.
  induction m as [|[k' a'] r IH]; simpl; auto. intros N. destruct (eqd k k'); [exfalso; auto|]. f_equal. auto.
Qed.
Lemma remove_split m k a : NoDup (map fst m) -> lookup m k = Some a ->
  exists m1 m2, m = m1 ++ (k, a) :: m2 /\ remove_key m k = m1 ++ m2.
Proof.
  induction m as [|[k' a'] r IH]; simpl; [discriminate|]. intros ND E. apply NoDup_cons_iff in ND as [N ND]. destruct (eqd k k').
  - injection E as ->. subst. exists [], r. rewrite remove_absent; auto.
  - destruct (IH ND E) as [m1 [m2 [E1 E2]]]. exists ((k', a') :: m1), m2. simpl. split; congruence.
Qed.
Lemma length_remove m k a : NoDup (map fst m) -> lookup m k = Some a -> S (length (remove_key m k)) = length m.
Proof.
  intros ND E. destruct (remove_split m k a ND E) as [m1 [m2 [E1 E2]]]. rewrite E2, E1, !app_length. simpl. lia.
Qed.
End AMAPP.
Arguments lookup_in {K A} eqd {m k a}.
Arguments in_lookup {K A} eqd {m k a}.
Arguments remove_split {K A} eqd {m k a}.

Definition cnt (l : list nat) (i : nat) : nat := count_occ Nat.eq_dec l i.
Lemma cnt_app l1 l2 i : cnt (l1 ++ l2) i = cnt l1 i + cnt l2 i.
Proof. apply count_occ_app. Qed.
Lemma cnt_cons_eq l i : cnt (i :: l) i = S (cnt l i).
Proof. unfold cnt. simpl. destruct (Nat.eq_dec i i); congruence. Qed.
Lemma cnt_cons_neq l i j : j <> i -> cnt (j :: l) i = cnt l i.
Proof. unfold cnt. simpl. destruct (Nat.eq_dec j i); congruence. Qed.
Lemma cnt_swap a b l i : cnt (a :: b :: l) i = cnt (b :: a :: l) i.
Proof. unfold cnt. simpl. destruct (Nat.eq_dec a i), (Nat.eq_dec b i); reflexivity. Qed.
Lemma cnt_zero l i : cnt l i = 0 <-> ~ In i l.
Proof. unfold cnt. symmetry. apply count_occ_not_In. Qed.
Lemma cnt_pos l i : cnt l i > 0 <-> In i l.
Proof. unfold cnt. symmetry. apply count_occ_In. Qed.

(* so that simpl leaves the comparison of table keys alone (stab_add_node, stab_del_node) *)
Global Opaque MtbddStoreDefs.ikey_eq_dec.
Section STOREP.
Variable V : Type.
Variable V_eq_dec : forall a b : V, {a = b} + {a <> b}.
Notation dd := (dd V).
Notation store := (store V).
Notation node := (node V).
Notation shape := (shape V).
Notation handle := (handle V).
Notation wf := (wf V).
Notation top_lt := (top_lt V).
Notation nlookup := (nlookup V).
Notation hlookup := (hlookup V).
Notation mkn := (mkn V).
Notation mkh := (mkh V).
Notation mks := (mks V).
Notation inc_rc := (inc_rc V).
Notation set_rc := (set_rc V).
Notation add_handle := (add_handle V).
Notation del_handle := (del_handle V).
Notation spawn_leaf := (spawn_leaf V V_eq_dec).
Notation spawn_internal := (spawn_internal V).
Notation intern := (intern V V_eq_dec).
Notation dispose_leaf := (dispose_leaf V V_eq_dec).
Notation dispose_internal := (dispose_internal V).
Notation release := (release V V_eq_dec).
Notation ikey_eq_dec := MtbddStoreDefs.ikey_eq_dec.
Implicit Types s : store.

Inductive den (s : store) : id -> dd -> Prop :=
| den_leaf i v c : nlookup s i = Some (mkn (SLeaf v) c) -> den s i (Leaf v)
| den_int i lo hi x c l h : nlookup s i = Some (mkn (SInt lo hi x) c) -> den s lo l -> den s hi h -> den s i (Nd x l h).

Lemma den_node {s i d sh c} : den s i d -> nlookup s i = Some (mkn sh c) ->
  match sh with
  | SLeaf v => d = Leaf v
  | SInt lo hi x => exists l h, d = Nd x l h /\ den s lo l /\ den s hi h
  end.
Proof. intros [j v c' E'|j lo hi x c' l h E' Dl Dh] E; rewrite E in E'; injection E' as -> _; eauto. Qed.
Lemma den_inv {s i d} : den s i d ->
  match d with
  | Leaf v => exists c, nlookup s i = Some (mkn (SLeaf v) c)
  | Nd x l h => exists lo hi c, nlookup s i = Some (mkn (SInt lo hi x) c) /\ den s lo l /\ den s hi h
  end.
Proof. destruct 1; eauto 7. Qed.
Lemma den_fun {s i d d'} : den s i d -> den s i d' -> d = d'.
Proof.
  intros D. revert d'. induction D as [i v c E|i lo hi x c l h E Dl IHl Dh IHh]; intros d' D'.
  - symmetry. exact (den_node D' E).
  - destruct (den_node D' E) as [l' [h' [-> [Dl' Dh']]]]. f_equal; auto.
Qed.
Lemma den_in {s i d} : den s i d -> nlookup s i <> None.
Proof. destruct 1; congruence. Qed.

Definition sext (s s' : store) : Prop :=
  forall i n, nlookup s i = Some n -> exists n', nlookup s' i = Some n' /\ shp V n' = shp V n.
Lemma sext_refl s : sext s s.
Proof. intros i n E. eauto. Qed.
Lemma sext_trans s1 s2 s3 : sext s1 s2 -> sext s2 s3 -> sext s1 s3.
Proof. intros A B i n E. destruct (A i n E) as [n' [E' S']]. destruct (B i n' E') as [n2 [E2 S2]]. exists n2. split; congruence. Qed.
Lemma sext_shape {s s' i sh c} : sext s s' -> nlookup s i = Some (mkn sh c) -> exists c', nlookup s' i = Some (mkn sh c').
Proof. intros X E. destruct (X _ _ E) as [[sh' c'] [E' S']]. simpl in S'. subst. eauto. Qed.
Lemma sext_in s s' i : sext s s' -> nlookup s i <> None -> nlookup s' i <> None.
Proof. intros X N. destruct (nlookup s i) as [n|] eqn:E; [|congruence]. destruct (X _ _ E) as [n' [E' _]]. congruence. Qed.
Lemma sext_none s s' i : sext s' s -> nlookup s i = None -> nlookup s' i = None.
Proof. intros X N. destruct (nlookup s' i) eqn:E; auto. exfalso. eapply sext_in; eauto. congruence. Qed.
Lemma den_sext {s s' i d} : sext s s' -> den s i d -> den s' i d.
Proof.
  intros X. induction 1 as [i v c E|i lo hi x c l h E Dl IHl Dh IHh]; destruct (sext_shape X E) as [c' E'].
  - eapply den_leaf; eauto.
  - eapply den_int; eauto.
Qed.
Lemma den_wf_sext {s s' i} : sext s s' -> (exists d, den s i d /\ wf d) -> exists d, den s' i d /\ wf d.
Proof. intros X [d [D W]]. exists d. split; [exact (den_sext X D)|exact W]. Qed.

Definition children (sh : shape) : list id := match sh with SLeaf _ => [] | SInt lo hi _ => [lo; hi] end.
Definition nrefs (ns : list (id * node)) : list id := flat_map (fun p => children (shp V (snd p))) ns.
Definition hrefs (hs : list (nat * handle)) : list id := map (fun p => root V (snd p)) hs.
Definition reflist (s : store) : list id := hrefs (handles V s) ++ nrefs (nodes V s).

(* the invariant, with a multiset X of counted references held outside the store
   (a root about to be wrapped in an object, the children of a node being deleted) *)
Record Core (s : store) (X : list id) : Prop := {
  c_nd_nodes : NoDup (map fst (nodes V s));
  c_nd_ltab : NoDup (map fst (ltab V s));
  c_nd_itab : NoDup (map fst (itab V s));
  c_nd_handles : NoDup (map fst (handles V s));
  c_ltab : forall v i, lookup V_eq_dec (ltab V s) v = Some i <-> exists c, nlookup s i = Some (mkn (SLeaf v) c);
  c_itab : forall lo hi x i, lookup ikey_eq_dec (itab V s) (lo, hi, x) = Some i <-> exists c, nlookup s i = Some (mkn (SInt lo hi x) c);
  c_fresh : forall i n, nlookup s i = Some n -> i < next V s;
  c_order : forall i lo hi x c, nlookup s i = Some (mkn (SInt lo hi x) c) -> lo < i /\ hi < i;
  c_den : forall i n, nlookup s i = Some n -> exists d, den s i d /\ wf d;
  c_hden : forall h hd, hlookup s h = Some hd -> den s (root V hd) (ghost V hd);
  c_pend : forall i, In i X -> nlookup s i <> None;
  c_cnt : forall i n, nlookup s i = Some n -> rc V n = cnt (reflist s ++ X) i
}.

Lemma core_perm s X Y : Core s X -> (forall i, cnt X i = cnt Y i) -> Core s Y.
Proof.
  intros C P. destruct C. constructor; try assumption.
  - intros i Hi. apply c_pend0. apply cnt_pos. rewrite P. apply cnt_pos. exact Hi.
  - intros i n E. rewrite (c_cnt0 i n E), !cnt_app, P. reflexivity.
Qed.

Definition stab s (sh : shape) : option id :=
  match sh with
  | SLeaf v => lookup V_eq_dec (ltab V s) v
  | SInt lo hi x => lookup ikey_eq_dec (itab V s) (lo, hi, x)
  end.
Lemma core_stab {s X} : Core s X -> forall sh i, stab s sh = Some i <-> exists c, nlookup s i = Some (mkn sh c).
Proof. intros C sh i. destruct sh; apply C. Qed.
Lemma shape_inj {s X sh i j c c'} : Core s X -> nlookup s i = Some (mkn sh c) -> nlookup s j = Some (mkn sh c') -> i = j.
Proof.
  intros C Ei Ej. assert (A : stab s sh = Some i) by (apply (core_stab C); eauto).
  assert (B : stab s sh = Some j) by (apply (core_stab C); eauto). congruence.
Qed.
Lemma in_heap_lt {s X i} : Core s X -> nlookup s i <> None -> i < next V s.
Proof. intros C N. destruct (nlookup s i) eqn:E; [|congruence]. exact (c_fresh _ _ C _ _ E). Qed.
Lemma next_unused {s X} : Core s X -> nlookup s (next V s) = None.
Proof. intros C. destruct (nlookup s (next V s)) eqn:E; auto. apply (c_fresh _ _ C) in E. lia. Qed.
Lemma den_wf {s X i d} : Core s X -> den s i d -> wf d.
Proof.
  intros C D. assert (N := den_in D). destruct (nlookup s i) as [n|] eqn:E; [|congruence].
  destruct (c_den _ _ C i n E) as [d' [D' W]]. rewrite (den_fun D D'). exact W.
Qed.

Lemma root_ref s X h hd : hlookup s h = Some hd -> In (root V hd) (reflist s ++ X).
Proof.
  intros E. apply in_or_app. left. apply in_or_app. left.
  exact (in_map (fun p => root V (snd p)) _ _ (lookup_in Nat.eq_dec E)).
Qed.
Lemma child_ref s X i sh c j : nlookup s i = Some (mkn sh c) -> In j (children sh) -> In j (reflist s ++ X).
Proof.
  intros E H. apply in_or_app. left. apply in_or_app. right. apply in_flat_map.
  exists (i, mkn sh c). split; [exact (lookup_in Nat.eq_dec E)|exact H].
Qed.
Lemma in_reflist {s X j} : Core s X -> In j (reflist s) ->
  (exists h hd, hlookup s h = Some hd /\ root V hd = j) \/
  (exists i sh c, nlookup s i = Some (mkn sh c) /\ In j (children sh)).
Proof.
  intros C H. apply in_app_or in H as [H|H]; [left|right].
  - apply in_map_iff in H as [[h hd] [E H]]. exists h, hd. split; auto. apply in_lookup; [apply (c_nd_handles _ _ C)|exact H].
  - apply in_flat_map in H as [[i [sh c]] [H E]]. exists i, sh, c. split; auto. apply in_lookup; [apply (c_nd_nodes _ _ C)|exact H].
Qed.
Lemma child_den {s X i sh c j} : Core s X -> nlookup s i = Some (mkn sh c) -> In j (children sh) ->
  exists x l h, j < i /\ den s i (Nd x l h) /\ (den s j l \/ den s j h).
Proof.
  intros C E H. destruct sh as [v|lo hi x]; [destruct H|]. destruct (c_den _ _ C i _ E) as [d [D _]].
  destruct (den_node D E) as [l [h [-> [Dl Dh]]]]. destruct (c_order _ _ C i lo hi x c E) as [Llo Lhi].
  exists x, l, h. destruct H as [<-|[<-|[]]]; auto.
Qed.
Lemma refs_live {s X j} : Core s X -> In j (reflist s ++ X) -> nlookup s j <> None.
Proof.
  intros C H. apply in_app_or in H as [H|H]; [|exact (c_pend _ _ C j H)].
  apply (in_reflist C) in H as [[h [hd [E <-]]]|[i [sh [c [E H]]]]].
  - exact (den_in (c_hden _ _ C h hd E)).
  - destruct (child_den C E H) as [x [l [h [_ [_ [D|D]]]]]]; exact (den_in D).
Qed.

Definition fresh_ok (s s' : store) : Prop :=
  next V s <= next V s' /\ forall i, nlookup s' i <> None -> nlookup s i <> None \/ next V s <= i.
Lemma fresh_refl s : fresh_ok s s.
Proof. split; auto. Qed.
Lemma fresh_trans s1 s2 s3 : fresh_ok s1 s2 -> fresh_ok s2 s3 -> fresh_ok s1 s3.
Proof.
  intros [A1 A2] [B1 B2]. split; [lia|]. intros i H. destruct (B2 i H) as [H2|H2]; [|right; lia].
  destruct (A2 i H2); auto.
Qed.
Lemma fresh_sext s s' : sext s' s -> next V s <= next V s' -> fresh_ok s s'.
Proof. intros X L. split; auto. intros i H. left. eapply sext_in; eauto. Qed.
Definition quiet (s s' : store) : Prop := handles V s' = handles V s /\ fresh_ok s s'.
Lemma quiet_refl s : quiet s s.
Proof. split; [reflexivity|apply fresh_refl]. Qed.
Lemma quiet_trans s1 s2 s3 : quiet s1 s2 -> quiet s2 s3 -> quiet s1 s3.
Proof. intros [A A'] [B B']. split; [congruence|eapply fresh_trans; eauto]. Qed.

Definition upd_node s i (f : node -> node) : store := set_nodes V s (update Nat.eq_dec (nodes V s) i f).
Lemma inc_rc_eq s i : inc_rc s i = upd_node s i (fun n => mkn (shp V n) (S (rc V n))).
Proof. reflexivity. Qed.
Lemma set_rc_eq s i c : set_rc s i c = upd_node s i (fun n => mkn (shp V n) c).
Proof. reflexivity. Qed.
Lemma nlookup_set_nodes s ns i : nlookup (set_nodes V s ns) i = lookup Nat.eq_dec ns i.
Proof. reflexivity. Qed.
Lemma nlookup_upd s i f j : nlookup (upd_node s i f) j = if Nat.eq_dec j i then option_map f (nlookup s j) else nlookup s j.
Proof. apply lookup_update. Qed.
Lemma upd_sext s i f : (forall n, shp V (f n) = shp V n) -> sext s (upd_node s i f) /\ sext (upd_node s i f) s.
Proof.
  intros S. split; intros j n; rewrite nlookup_upd; destruct (Nat.eq_dec j i); eauto.
  - intros ->. simpl. eauto.
  - destruct (nlookup s j) as [m|]; simpl; [|discriminate]. intros [= <-]. eauto.
Qed.

Lemma upd_quiet s i f : (forall n, shp V (f n) = shp V n) -> quiet s (upd_node s i f).
Proof. intros S. split; [reflexivity|]. apply fresh_sext; [apply upd_sext, S|apply le_n]. Qed.

Lemma nrefs_update ns i (f : node -> node) : (forall n, shp V (f n) = shp V n) ->
  nrefs (update Nat.eq_dec ns i f) = nrefs ns.
Proof.
  intros S. unfold nrefs. induction ns as [|[k n] r IH]; simpl; auto. destruct (Nat.eq_dec i k); simpl; congruence.
Qed.
Lemma nrefs_remove ns i n : NoDup (map fst ns) -> lookup Nat.eq_dec ns i = Some n ->
  forall j, cnt (nrefs ns) j = cnt (children (shp V n)) j + cnt (nrefs (remove_key Nat.eq_dec ns i)) j.
Proof.
  intros ND E j. destruct (remove_split Nat.eq_dec ND E) as [m1 [m2 [-> ->]]].
  unfold nrefs. rewrite !flat_map_app, !cnt_app. simpl. rewrite cnt_app. lia.
Qed.
Lemma hrefs_remove hs h hd : NoDup (map fst hs) -> lookup Nat.eq_dec hs h = Some hd ->
  forall j, cnt (hrefs hs) j = cnt [root V hd] j + cnt (hrefs (remove_key Nat.eq_dec hs h)) j.
Proof.
  intros ND E j. destruct (remove_split Nat.eq_dec ND E) as [m1 [m2 [-> ->]]].
  unfold hrefs. rewrite !map_app, !cnt_app. unfold cnt. simpl. destruct (Nat.eq_dec (root V hd) j); lia.
Qed.

Lemma core_upd s X Y i (f : node -> node) :
  Core s X -> (forall n, shp V (f n) = shp V n) ->
  (forall j, In j Y -> nlookup s j <> None) ->
  (forall n, nlookup s i = Some n -> rc V (f n) = cnt (reflist s ++ Y) i) ->
  (forall j, j <> i -> cnt X j = cnt Y j) ->
  Core (upd_node s i f) Y.
Proof.
  intros C S PY RC XY. destruct (upd_sext s i f S) as [SX SX'].
  assert (SH : forall j sh, (exists c, nlookup s j = Some (mkn sh c)) <-> (exists c, nlookup (upd_node s i f) j = Some (mkn sh c))).
  { intros j sh. split; intros [c E]; eapply sext_shape; eauto. }
  assert (BK : forall j n, nlookup (upd_node s i f) j = Some n -> exists c, nlookup s j = Some (mkn (shp V n) c)).
  { intros j [sh c] E. eapply sext_shape; eauto. }
  constructor; simpl.
  - rewrite keys_update. apply C.
  - apply C.
  - apply C.
  - apply C.
  - intros v j. rewrite (c_ltab _ _ C). apply SH.
  - intros lo hi x j. rewrite (c_itab _ _ C). apply SH.
  - intros j n E. destruct (BK j n E) as [c E']. exact (c_fresh _ _ C _ _ E').
  - intros j lo hi x c E. destruct (BK j _ E) as [c' E']. exact (c_order _ _ C _ _ _ _ _ E').
  - intros j n E. destruct (BK j n E) as [c E']. exact (den_wf_sext SX (c_den _ _ C _ _ E')).
  - intros h hd E. exact (den_sext SX (c_hden _ _ C h hd E)).
  - intros j Hj. exact (sext_in _ _ j SX (PY j Hj)).
  - intros j n. rewrite nlookup_upd. unfold reflist. simpl. rewrite nrefs_update by auto. fold (reflist s).
    destruct (Nat.eq_dec j i).
    + subst j. destruct (nlookup s i) as [m|] eqn:E; simpl; [|discriminate]. intros [= <-]. apply RC. reflexivity.
    + intros E. rewrite (c_cnt _ _ C j n E), !cnt_app. rewrite XY; auto.
Qed.

Lemma inc_core s X i : Core s X -> nlookup s i <> None -> Core (inc_rc s i) (i :: X).
Proof.
  intros C N. rewrite inc_rc_eq. apply (core_upd s X (i :: X)); auto.
  - intros j [<-|H]; auto. apply (c_pend _ _ C); auto.
  - intros n E. simpl. rewrite (c_cnt _ _ C i n E), !cnt_app, cnt_cons_eq. lia.
  - intros j Nj. rewrite cnt_cons_neq; auto.
Qed.

Lemma dec_core {s X i sh c} : Core s (i :: X) -> nlookup s i = Some (mkn sh c) ->
  exists c', c = S c' /\ Core (set_rc s i c') X.
Proof.
  intros C E. assert (R := c_cnt _ _ C i _ E). rewrite cnt_app, cnt_cons_eq in R.
  exists (cnt (reflist s) i + cnt X i). split; [simpl in R; lia|].
  rewrite set_rc_eq. apply (core_upd s (i :: X) X); auto.
  - intros j Hj. apply (c_pend _ _ C). right. exact Hj.
  - intros m Em. simpl. rewrite cnt_app. reflexivity.
  - intros j Nj. rewrite cnt_cons_neq; auto.
Qed.

Lemma hlookup_add s h hd h' : hlookup (add_handle s h hd) h' = if Nat.eq_dec h' h then Some hd else hlookup s h'.
Proof. reflexivity. Qed.
Lemma hlookup_del s h h' : hlookup (del_handle s h) h' = if Nat.eq_dec h' h then None else hlookup s h'.
Proof. apply lookup_remove. Qed.
Lemma hlookup_handles s s' h : handles V s' = handles V s -> hlookup s' h = hlookup s h.
Proof. unfold MtbddStoreDefs.hlookup. intros ->. reflexivity. Qed.

(* add_handle and del_handle leave the heap and next alone: what is said of the nodes of the changed store
   (sext, fresh_ok, the counters) is convertible with the same of s *)
Lemma add_handle_core s X h hd : Core s (root V hd :: X) -> hlookup s h = None -> den s (root V hd) (ghost V hd) ->
  Core (add_handle s h hd) X.
Proof.
  intros C F D. assert (SX : sext s (add_handle s h hd)) by exact (sext_refl s).
  destruct C. constructor; simpl; try assumption.
  - constructor; auto. apply lookup_none in F. exact F.
  - intros i n E. exact (den_wf_sext SX (c_den0 i n E)).
  - intros k hk. rewrite hlookup_add. destruct (Nat.eq_dec k h); [intros [= <-]|intros E]; eapply den_sext; eauto.
  - intros i Hi. apply c_pend0. right. exact Hi.
  - intros i n E. rewrite (c_cnt0 i n E). unfold reflist. simpl. rewrite !cnt_app.
    unfold cnt. simpl. destruct (Nat.eq_dec (root V hd) i); lia.
Qed.

Lemma del_handle_core {s X h hd} : Core s X -> hlookup s h = Some hd -> Core (del_handle s h) (root V hd :: X).
Proof.
  intros C E. assert (SX : sext s (del_handle s h)) by exact (sext_refl s).
  destruct C. constructor; simpl; try assumption.
  - apply nodup_remove. auto.
  - intros i n En. exact (den_wf_sext SX (c_den0 i n En)).
  - intros k hk. rewrite hlookup_del. destruct (Nat.eq_dec k h); [discriminate|]. intros Ek. eapply den_sext; eauto.
  - intros i [<-|Hi]; [|exact (c_pend0 i Hi)]. exact (den_in (c_hden0 h hd E)).
  - intros i n En. rewrite (c_cnt0 i n En). unfold reflist. simpl. rewrite !cnt_app.
    rewrite (hrefs_remove _ h hd c_nd_handles0 E i). unfold cnt. simpl. destruct (Nat.eq_dec (root V hd) i); lia.
Qed.

(* a node of shape sh with counter 0 at the next free address, entered in its unique table;
   [add_node s (SLeaf v)] and [add_node s (SInt lo hi x)] are what spawn_leaf and spawn_internal build *)
Definition add_node s (sh : shape) : store :=
  let k := next V s in
  mks ((k, mkn sh 0) :: nodes V s)
      (match sh with SLeaf v => (v, k) :: ltab V s | SInt _ _ _ => ltab V s end)
      (match sh with SLeaf _ => itab V s | SInt lo hi x => ((lo, hi, x), k) :: itab V s end)
      (S k) (handles V s).
(* [dispose_leaf s i v] is [del_node s i (SLeaf v)], [dispose_internal s i (lo, hi, x)] is [del_node s i (SInt lo hi x)] *)
Definition del_node s (i : id) (sh : shape) : store :=
  mks (remove_key Nat.eq_dec (nodes V s) i)
      (match sh with SLeaf v => remove_key V_eq_dec (ltab V s) v | SInt _ _ _ => ltab V s end)
      (match sh with SLeaf _ => itab V s | SInt lo hi x => remove_key ikey_eq_dec (itab V s) (lo, hi, x) end)
      (next V s) (handles V s).

Lemma nlookup_add_node s sh j : nlookup (add_node s sh) j = if Nat.eq_dec j (next V s) then Some (mkn sh 0) else nlookup s j.
Proof. reflexivity. Qed.
Lemma nlookup_add_node_eq s sh : nlookup (add_node s sh) (next V s) = Some (mkn sh 0).
Proof. rewrite nlookup_add_node. destruct (Nat.eq_dec (next V s) (next V s)); congruence. Qed.
Lemma nlookup_del_node s i sh j : nlookup (del_node s i sh) j = if Nat.eq_dec j i then None else nlookup s j.
Proof. apply lookup_remove. Qed.
Lemma shape_eq_dec (a b : shape) : {a = b} + {a <> b}.
Proof. decide equality; apply Nat.eq_dec || apply V_eq_dec. Qed.
Lemma stab_add_node s sh sh' : stab (add_node s sh) sh' = if shape_eq_dec sh' sh then Some (next V s) else stab s sh'.
Proof.
  destruct sh as [v|lo hi x], sh' as [v'|lo' hi' x']; simpl; destruct (shape_eq_dec _ _);
    try destruct (V_eq_dec v' v); try destruct (ikey_eq_dec (lo', hi', x') (lo, hi, x)); congruence.
Qed.
Lemma stab_del_node s j sh sh' : stab (del_node s j sh) sh' = if shape_eq_dec sh' sh then None else stab s sh'.
Proof.
  destruct sh as [v|lo hi x], sh' as [v'|lo' hi' x']; simpl; rewrite ?lookup_remove; destruct (shape_eq_dec _ _);
    try destruct (V_eq_dec v' v); try destruct (ikey_eq_dec (lo', hi', x') (lo, hi, x)); congruence.
Qed.
Lemma add_node_sext s sh : nlookup s (next V s) = None -> sext s (add_node s sh).
Proof. intros NU j n E. exists n. rewrite nlookup_add_node. destruct (Nat.eq_dec j (next V s)); [congruence|auto]. Qed.
Lemma nlookup_dispose_leaf s i v j : nlookup (dispose_leaf s i v) j = if Nat.eq_dec j i then None else nlookup s j.
Proof. exact (nlookup_del_node s i (SLeaf v) j). Qed.
Lemma nlookup_dispose_internal s i lo hi x j :
  nlookup (dispose_internal s i (lo, hi, x)) j = if Nat.eq_dec j i then None else nlookup s j.
Proof. exact (nlookup_del_node s i (SInt lo hi x) j). Qed.
Lemma del_node_sext s i sh : sext (del_node s i sh) s.
Proof. intros j n. rewrite nlookup_del_node. destruct (Nat.eq_dec j i); [discriminate|eauto]. Qed.
Lemma del_node_quiet s i sh : quiet s (del_node s i sh).
Proof. split; [reflexivity|]. apply fresh_sext; [apply del_node_sext|apply le_n]. Qed.
Lemma inc_add_node s sh i : i <> next V s -> inc_rc (add_node s sh) i = add_node (inc_rc s i) sh.
Proof.
  intros N. unfold MtbddStoreDefs.inc_rc, add_node, set_nodes. simpl. destruct (Nat.eq_dec i (next V s)); [contradiction|reflexivity].
Qed.
Lemma del_node_upd s i sh f : del_node (upd_node s i f) i sh = del_node s i sh.
Proof. unfold del_node, upd_node. simpl. rewrite remove_update. reflexivity. Qed.

Lemma add_node_tab {s X sh} : Core s X -> stab s sh = None ->
  forall sh' i, stab (add_node s sh) sh' = Some i <-> exists c, nlookup (add_node s sh) i = Some (mkn sh' c).
Proof.
  intros C E sh' i. assert (NU := next_unused C). assert (T := core_stab C sh' i).
  rewrite stab_add_node, nlookup_add_node. destruct (shape_eq_dec sh' sh) as [->|N], (Nat.eq_dec i (next V s)) as [->|N'].
  - split; eauto.
  - split; [congruence|]. intros H. apply T in H. congruence.
  - split; [intros H; apply T in H as [c H]; congruence|]. intros [c [= Q]]. congruence.
  - exact T.
Qed.

Lemma add_node_core s X sh d : Core s (children sh ++ X) -> stab s sh = None ->
  den (add_node s sh) (next V s) d -> wf d -> Core (add_node s sh) X.
Proof.
  intros C E D W.
  assert (NU := next_unused C). assert (L := nlookup_add_node s sh). assert (SX := add_node_sext s sh NU).
  assert (LT : forall j, In j (reflist s ++ children sh ++ X) -> j < next V s).
  { intros j H. eapply in_heap_lt; eauto. eapply refs_live; eauto. }
  assert (TB := add_node_tab C E).
  constructor; simpl.
  - constructor; [exact (proj1 (lookup_none _ _ Nat.eq_dec _ _) NU)|apply C].
  - destruct sh; [constructor; [apply lookup_none in E; exact E|]|]; apply C.
  - destruct sh; [|constructor; [apply lookup_none in E; exact E|]]; apply C.
  - apply C.
  - intros v i. apply (TB (SLeaf v) i).
  - intros lo hi x i. apply (TB (SInt lo hi x) i).
  - intros j n. rewrite L. destruct (Nat.eq_dec j (next V s)); [lia|]. intros H. apply (c_fresh _ _ C) in H. lia.
  - intros j lo hi x c. rewrite L. destruct (Nat.eq_dec j (next V s)); [|apply C].
    intros [= ->]. subst j. split; apply LT; apply in_or_app; right; simpl; auto.
  - intros j n. rewrite L. destruct (Nat.eq_dec j (next V s)); [subst; eauto|].
    intros H. exact (den_wf_sext SX (c_den _ _ C j n H)).
  - intros h hd H. exact (den_sext SX (c_hden _ _ C h hd H)).
  - intros j Hj. rewrite L. destruct (Nat.eq_dec j (next V s)); [discriminate|]. apply (c_pend _ _ C). apply in_or_app. auto.
  - assert (P : forall j, cnt (reflist (add_node s sh) ++ X) j = cnt (reflist s ++ children sh ++ X) j).
    { intros j. unfold reflist. simpl. fold (nrefs (nodes V s)). rewrite !cnt_app. lia. }
    intros j n. rewrite L, P. destruct (Nat.eq_dec j (next V s)) as [->|N].
    + intros [= <-]. symmetry. apply cnt_zero. intros H. exact (Nat.lt_irrefl _ (LT _ H)).
    + apply (c_cnt _ _ C).
Qed.

Lemma unreferenced {s X i n} : Core s X -> nlookup s i = Some n -> rc V n = 0 -> ~ In i (reflist s ++ X).
Proof. intros C E R. apply cnt_zero. rewrite <- (c_cnt _ _ C i n E). exact R. Qed.

Lemma del_node_den {s X i sh} : Core s X -> nlookup s i = Some (mkn sh 0) ->
  forall j d, den s j d -> j <> i -> den (del_node s i sh) j d.
Proof.
  intros C E. assert (Z := unreferenced C E eq_refl).
  induction 1 as [j v c Ej|j lo hi x c l h Ej Dl IHl Dh IHh]; intros Nj.
  - eapply den_leaf. rewrite nlookup_del_node. destruct (Nat.eq_dec j i); [congruence|eauto].
  - assert (R : forall q, In q [lo; hi] -> q <> i).
    { intros q Hq ->. exact (Z (child_ref s X j _ c i Ej Hq)). }
    eapply den_int; [rewrite nlookup_del_node; destruct (Nat.eq_dec j i); [congruence|eauto] | apply IHl, R; simpl; auto | apply IHh, R; simpl; auto].
Qed.

Lemma del_node_tab {s X i sh c} : Core s X -> nlookup s i = Some (mkn sh c) ->
  forall sh' j, stab (del_node s i sh) sh' = Some j <-> exists c', nlookup (del_node s i sh) j = Some (mkn sh' c').
Proof.
  intros C E sh' j. assert (T := core_stab C sh' j).
  rewrite stab_del_node, nlookup_del_node. destruct (shape_eq_dec sh' sh) as [->|N], (Nat.eq_dec j i) as [->|N'].
  - split; [discriminate|intros [c' H]; discriminate].
  - split; [discriminate|]. intros [c' H]. destruct N'. exact (shape_inj C H E).
  - split; [|intros [c' H]; discriminate]. intros H. apply T in H as [c' H]. congruence.
  - exact T.
Qed.

Lemma del_node_core {s X i sh} : Core s X -> nlookup s i = Some (mkn sh 0) -> Core (del_node s i sh) (children sh ++ X).
Proof.
  intros C E. assert (L := nlookup_del_node s i sh).
  assert (Z := unreferenced C E eq_refl). assert (DR := del_node_den C E).
  assert (TB := del_node_tab C E).
  constructor; simpl.
  - apply nodup_remove, C.
  - destruct sh; [apply nodup_remove|]; apply C.
  - destruct sh; [|apply nodup_remove]; apply C.
  - apply C.
  - intros v j. apply (TB (SLeaf v) j).
  - intros lo hi x j. apply (TB (SInt lo hi x) j).
  - intros j m. rewrite L. destruct (Nat.eq_dec j i); [discriminate|]. apply C.
  - intros j lo hi x c. rewrite L. destruct (Nat.eq_dec j i); [discriminate|]. apply C.
  - intros j m. rewrite L. destruct (Nat.eq_dec j i); [discriminate|]. intros H.
    destruct (c_den _ _ C j m H) as [d [D W]]. exists d. auto.
  - intros h hd H. apply DR; [exact (c_hden _ _ C h hd H)|]. intros Q. apply Z. rewrite <- Q. exact (root_ref s X h hd H).
  - intros j Hj. rewrite L. assert (R : In j (reflist s ++ X)).
    { apply in_app_or in Hj as [Hj|Hj]; [exact (child_ref s X i sh 0 j E Hj)|apply in_or_app; auto]. }
    destruct (Nat.eq_dec j i); [subst; contradiction|exact (refs_live C R)].
  - intros j m. rewrite L. destruct (Nat.eq_dec j i); [discriminate|]. intros H. rewrite (c_cnt _ _ C j m H).
    unfold reflist. simpl. rewrite !cnt_app, (nrefs_remove _ i _ (c_nd_nodes _ _ C) E j). simpl. lia.
Qed.

Definition zeros (s : store) (L : list id) : Prop := forall i n, nlookup s i = Some n -> rc V n = 0 -> In i L.
Lemma zeros_incl s L L' : zeros s L -> incl L L' -> zeros s L'.
Proof. intros Z I i n E R. apply I. eapply Z; eauto. Qed.
Lemma zeros_cons s j L : zeros s L -> zeros s (j :: L).
Proof. intros Z. eapply zeros_incl; [exact Z|apply incl_tl, incl_refl]. Qed.
Lemma zeros_swap s a b L : zeros s (a :: b :: L) -> zeros s (b :: a :: L).
Proof. intros Z. eapply zeros_incl; [exact Z|]. intros q [<-|[<-|H]]; simpl; auto. Qed.
Lemma zeros_ref s X j L : Core s X -> In j (reflist s ++ X) -> zeros s (j :: L) -> zeros s L.
Proof.
  intros C H Z i n E R. destruct (Z i n E R) as [<-|Hi]; auto. exfalso. exact (unreferenced C E R H).
Qed.
Lemma zeros_upd s L i f : (forall n, rc V (f n) <> 0) -> zeros s (i :: L) -> zeros (upd_node s i f) L.
Proof.
  intros P Z j n. rewrite nlookup_upd. destruct (Nat.eq_dec j i).
  - destruct (nlookup s j) as [m|]; simpl; [|discriminate]. intros [= <-] R. destruct (P m R).
  - intros E R. destruct (Z j n E R) as [<-|H]; [contradiction|exact H].
Qed.
Lemma inc_zeros s L i : zeros s (i :: L) -> zeros (inc_rc s i) L.
Proof. rewrite inc_rc_eq. apply zeros_upd. discriminate. Qed.
Lemma zeros_add_node s sh L : zeros s L -> zeros (add_node s sh) (next V s :: L).
Proof.
  intros Z j n. rewrite nlookup_add_node. destruct (Nat.eq_dec j (next V s)); [left; auto|]. intros E R. right. eapply Z; eauto.
Qed.
Lemma zeros_del_node s i sh L : zeros s (i :: L) -> zeros (del_node s i sh) L.
Proof.
  intros Z j n. rewrite nlookup_del_node. destruct (Nat.eq_dec j i); [discriminate|].
  intros E R. destruct (Z j n E R) as [<-|H]; [contradiction|exact H].
Qed.

Definition grows (s s' : store) : Prop := sext s s' /\ quiet s s'.
Lemma grows_refl s : grows s s.
Proof. split; [apply sext_refl|apply quiet_refl]. Qed.
Lemma grows_trans {s1 s2 s3} : grows s1 s2 -> grows s2 s3 -> grows s1 s3.
Proof. intros [A A'] [B B']. split; [eapply sext_trans; eauto|eapply quiet_trans; eauto]. Qed.
Lemma den_grows {s s' i d} : grows s s' -> den s i d -> den s' i d.
Proof. intros [X _]. apply den_sext. exact X. Qed.
Lemma inc_grows s i : grows s (inc_rc s i).
Proof. rewrite inc_rc_eq. split; [apply upd_sext|apply upd_quiet]; reflexivity. Qed.
Lemma add_node_grows s sh : nlookup s (next V s) = None -> grows s (add_node s sh).
Proof.
  intros NU. split; [apply add_node_sext; exact NU|]. split; [reflexivity|]. split; simpl; auto.
  intros j. rewrite nlookup_add_node. destruct (Nat.eq_dec j (next V s)); [subst; auto|auto].
Qed.

(* what building the node i of diagram d promises: the invariant with X pending; R, which is grows (nodes are
   only added) or quiet (the objects are untouched, no address is used again); and the nodes with counter 0
   are those of before, pre replaced by post *)
Record built (R : store -> store -> Prop) (s s' : store) (X : list id) (i : id) (d : dd) (pre post : list id) : Prop := {
  b_core : Core s' X;
  b_den : den s' i d;
  b_rel : R s s';
  b_zeros : forall L, zeros s (pre ++ L) -> zeros s' (post ++ L) }.

Lemma count_root {s X i d} : Core s X -> den s i d -> built quiet s (inc_rc s i) (i :: X) i d [i] [].
Proof.
  intros C D. destruct (inc_grows s i) as [SX Q].
  constructor; [apply inc_core; [exact C|exact (den_in D)] | exact (den_sext SX D) | exact Q | intros L; apply inc_zeros].
Qed.

Lemma spawn_leaf_eq s v : spawn_leaf s v =
  match stab s (SLeaf v) with Some i => (s, i) | None => (add_node s (SLeaf v), next V s) end.
Proof. reflexivity. Qed.
(* the children are counted first, so that the invariant holds (with lo and hi pending) before the node is added *)
Lemma spawn_internal_eq {s X lo hi} x : Core s X -> nlookup s lo <> None -> nlookup s hi <> None ->
  spawn_internal s lo hi x =
  match stab s (SInt lo hi x) with
  | Some i => (s, i)
  | None => (add_node (inc_rc (inc_rc s lo) hi) (SInt lo hi x), next V s)
  end.
Proof.
  intros C Nlo Nhi. assert (NU := next_unused C). unfold MtbddStoreDefs.spawn_internal.
  change (lookup ikey_eq_dec (itab V s) (lo, hi, x)) with (stab s (SInt lo hi x)). destruct (stab s (SInt lo hi x)); [reflexivity|].
  change (mks _ _ _ _ _) with (add_node s (SInt lo hi x)). cbv zeta.
  rewrite (inc_add_node s _ lo), (inc_add_node (inc_rc s lo) _ hi); [reflexivity| |]; simpl; congruence.
Qed.

Lemma spawn_leaf_core {s X v s' i} : Core s X -> spawn_leaf s v = (s', i) -> built grows s s' X i (Leaf v) [] [i].
Proof.
  intros C. rewrite spawn_leaf_eq. destruct (stab s (SLeaf v)) as [j|] eqn:E; intros [= <- <-].
  - apply (core_stab C) in E as [c E].
    constructor; [exact C | eapply den_leaf; eauto | apply grows_refl | intros L; apply zeros_cons].
  - assert (D : den (add_node s (SLeaf v)) (next V s) (Leaf v)) by (eapply den_leaf; apply nlookup_add_node_eq).
    constructor; [apply (add_node_core s X _ (Leaf v)); simpl; auto | exact D | apply add_node_grows, (next_unused C) |].
    intros L. apply zeros_add_node.
Qed.

Lemma spawn_internal_core {s X lo hi x dl dh s' i} :
  Core s X -> den s lo dl -> den s hi dh -> wf (Nd x dl dh) -> spawn_internal s lo hi x = (s', i) ->
  built grows s s' X i (Nd x dl dh) [lo; hi] [i].
Proof.
  intros C Dl Dh W. assert (Nlo := den_in Dl). assert (Nhi := den_in Dh).
  rewrite (spawn_internal_eq x C Nlo Nhi). destruct (stab s (SInt lo hi x)) as [j|] eqn:E; intros [= <- <-].
  - apply (core_stab C) in E as [c E].
    constructor; [exact C | eapply den_int; eauto | apply grows_refl |].
    assert (R := child_ref s X j (SInt lo hi x) c). intros L Z. apply zeros_cons.
    apply (zeros_ref s X hi); [auto|apply R; simpl; auto|]. apply (zeros_ref s X lo); [auto|apply R; simpl; auto|exact Z].
  - set (s2 := inc_rc (inc_rc s lo) hi).
    assert (G1 := inc_grows s lo). assert (G2 : grows s s2) by (eapply grows_trans; [exact G1|apply inc_grows]).
    assert (C2 : Core s2 (lo :: hi :: X)).
    { apply core_perm with (hi :: lo :: X); [|intros q; apply cnt_swap].
      apply inc_core; [apply inc_core; auto|]. eapply sext_in; eauto. apply G1. }
    change (next V s) with (next V s2).
    assert (G : grows s (add_node s2 (SInt lo hi x))).
    { eapply grows_trans; [exact G2|]. apply add_node_grows, (next_unused C2). }
    assert (D : den (add_node s2 (SInt lo hi x)) (next V s2) (Nd x dl dh)).
    { eapply den_int; [apply nlookup_add_node_eq|exact (den_grows G Dl)|exact (den_grows G Dh)]. }
    constructor; [apply (add_node_core s2 X _ (Nd x dl dh)); auto | exact D | exact G |].
    intros L Z. apply zeros_add_node, inc_zeros, inc_zeros, Z.
Qed.

Lemma intern_core d : forall s X s' i, Core s X -> wf d -> intern s d = (s', i) -> built grows s s' X i d [] [i].
Proof.
  induction d as [v|x l IHl h IHh]; intros s X s' i C W; simpl.
  - apply spawn_leaf_core. exact C.
  - destruct (intern s l) as [s1 il] eqn:E1. destruct (intern s1 h) as [s2 ih] eqn:E2. intros E3.
    assert (W' := W). destruct W as [_ [_ [_ [Wl Wh]]]].
    destruct (IHl _ _ _ _ C Wl E1) as [C1 D1 G1 Z1].
    destruct (IHh _ _ _ _ C1 Wh E2) as [C2 D2 G2 Z2].
    destruct (spawn_internal_core C2 (den_grows G2 D1) D2 W' E3) as [C3 D3 G3 Z3].
    constructor; [exact C3 | exact D3 | eauto using grows_trans |].
    intros L Z. apply Z3, zeros_swap, Z2, Z1, Z.
Qed.

Definition log_ok (s s' : store) (log : list id) : Prop :=
  NoDup log /\ forall j, In j log -> nlookup s j <> None /\ nlookup s' j = None.
(* what a release does to the heap: nodes are only removed (those of log, each once), shapes kept,
   no counter becomes 0; objects untouched *)
Record shrinks (s s' : store) (log : list id) : Prop := {
  sh_sext : sext s' s;
  sh_quiet : quiet s s';
  sh_zeros : forall L, zeros s L -> zeros s' L;
  sh_log : log_ok s s' log
}.
Lemma shrinks_trans s1 s2 s3 l1 l2 : shrinks s1 s2 l1 -> shrinks s2 s3 l2 -> shrinks s1 s3 (l1 ++ l2).
Proof.
  intros [A1 A2 A4 [A5 A6]] [B1 B2 B4 [B5 B6]]. constructor; [eapply sext_trans; eauto|eapply quiet_trans; eauto|auto|].
  split.
  - apply NoDup_app. repeat split; auto. intros j H1 H2. destruct (A6 j H1) as [_ Q]. destruct (B6 j H2) as [P _]. contradiction.
  - intros j H. apply in_app_or in H as [H|H].
    + destruct (A6 j H) as [P Q]. split; auto. eapply sext_none; eauto.
    + destruct (B6 j H) as [P Q]. split; auto. eapply sext_in; eauto.
Qed.
Lemma shrinks_del_node s i sh : nlookup s i <> None -> shrinks s (del_node s i sh) [i].
Proof.
  intros N. constructor.
  - apply del_node_sext.
  - apply del_node_quiet.
  - intros L Z. apply zeros_del_node, zeros_cons, Z.
  - split; [constructor; [simpl; tauto|constructor]|]. intros j [<-|[]]. split; auto.
    rewrite nlookup_del_node. destruct (Nat.eq_dec i i); congruence.
Qed.
Lemma shrinks_set_rc s i c : shrinks s (set_rc s i (S c)) [].
Proof.
  rewrite set_rc_eq. constructor.
  - apply upd_sext. reflexivity.
  - apply upd_quiet. reflexivity.
  - intros L Z. apply zeros_upd; [discriminate|apply zeros_cons, Z].
  - split; [constructor|intros j []].
Qed.

Lemma den_back {s s' X i d} : sext s' s -> Core s' X -> nlookup s' i <> None -> den s i d -> den s' i d.
Proof.
  intros SX C N D. destruct (nlookup s' i) as [n|] eqn:E; [|congruence].
  destruct (c_den _ _ C i n E) as [d' [D' _]]. rewrite (den_fun D (den_sext SX D')). exact D'.
Qed.

Lemma unlink_core {s X i sh} : Core s (i :: X) -> nlookup s i = Some (mkn sh 1) ->
  Core (del_node s i sh) (children sh ++ X) /\ forall j d, den s j d -> j <> i -> den (del_node s i sh) j d.
Proof.
  intros C E. destruct (dec_core C E) as [c [[= <-] C']]. rewrite set_rc_eq in C'.
  rewrite <- (del_node_upd s i sh (fun n => mkn (shp V n) 0)).
  assert (E' : nlookup (upd_node s i (fun n => mkn (shp V n) 0)) i = Some (mkn sh 0)).
  { rewrite nlookup_upd, E. destruct (Nat.eq_dec i i); [reflexivity|congruence]. }
  split; [exact (del_node_core C' E')|].
  intros j d D N. apply (del_node_den C' E'); auto. apply (den_sext (s:=s)); [apply upd_sext; reflexivity|exact D].
Qed.

Lemma release_core g : forall s X i, Core s (i :: X) -> den s i g ->
  match release g s i with Some (s', log) => Core s' X /\ shrinks s s' log | None => False end.
Proof.
  induction g as [v0|x0 gl IHl gh IHh]; intros s X i C D.
  - destruct (den_inv D) as [c E]. simpl. rewrite E. simpl. destruct (dec_core C E) as [[|c'] [-> C']].
    + split; [apply (unlink_core C E)|apply (shrinks_del_node s i (SLeaf v0)); congruence].
    + split; [exact C'|apply shrinks_set_rc].
  - destruct (den_inv D) as [lo [hi [c [E [Dl Dh]]]]]. simpl. rewrite E. simpl. destruct (dec_core C E) as [[|c'] [-> C']].
    + change (dispose_internal s i (lo, hi, x0)) with (del_node s i (SInt lo hi x0)).
      destruct (unlink_core C E) as [C1 DR]. destruct (c_order _ _ C i lo hi x0 _ E) as [Llo Lhi].
      assert (D1 : den (del_node s i (SInt lo hi x0)) lo gl) by (apply DR; auto; lia).
      assert (P := IHl _ (hi :: X) lo C1 D1). destruct (release gl _ lo) as [[s2 l1]|]; [|destruct P]. destruct P as [C2 S2].
      assert (D2 : den s2 hi gh).
      { apply (den_back (sh_sext _ _ _ S2) C2); [apply (c_pend _ _ C2); simpl; auto|]. apply DR; auto. lia. }
      assert (P := IHh s2 X hi C2 D2). destruct (release gh s2 hi) as [[s3 l2]|]; [|destruct P]. destruct P as [C3 S3].
      split; auto.
      apply (shrinks_trans s (del_node s i (SInt lo hi x0)) s3 [i] (l1 ++ l2)); [apply shrinks_del_node; congruence|].
      eapply shrinks_trans; eauto.
    + split; [exact C'|apply shrinks_set_rc].
Qed.

Notation chain_st := (chain_st V).
Notation construct_st := (construct_st V V_eq_dec).
Notation construct_from := (construct_from V V_eq_dec).
Notation make := (make V V_eq_dec).
Notation step := (step V V_eq_dec).

Lemma chain_core dv asgn : forall s X i off sink proc dproc s' p,
  Core s X -> den s sink (Leaf dv) -> den s proc dproc -> wf dproc -> top_lt dproc (i + off) -> dproc <> Leaf dv ->
  chain_st s asgn i off sink proc = (s', p) ->
  Core s' X /\ den s' p (chain V asgn i off (Leaf dv) dproc) /\ grows s s' /\
  ((p = proc /\ s' = s) \/ forall L, zeros s (sink :: proc :: L) -> zeros s' (p :: L)).
Proof.
  induction asgn as [|t r IH]; intros s X i off sink proc dproc s' p C Ds Dp W T N; simpl.
  - intros [= <- <-]. split; auto. split; auto. split; [apply grows_refl|auto].
  - assert (STEP : forall lo hi dl dh, den s lo dl -> den s hi dh -> wf (Nd (i + off) dl dh) ->
              (forall L, zeros s (sink :: proc :: L) -> zeros s (lo :: hi :: L)) ->
              (let (s1, p1) := spawn_internal s lo hi (i + off) in chain_st s1 r (S i) off sink p1) = (s', p) ->
              Core s' X /\ den s' p (chain V r (S i) off (Leaf dv) (Nd (i + off) dl dh)) /\ grows s s' /\
              ((p = proc /\ s' = s) \/ forall L, zeros s (sink :: proc :: L) -> zeros s' (p :: L))).
    { intros lo hi dl dh Dl Dh Wn LH. destruct (spawn_internal s lo hi (i + off)) as [s1 p1] eqn:E1. intros E2.
      destruct (spawn_internal_core C Dl Dh Wn E1) as [C1 D1 G1 Z1].
      destruct (IH s1 X (S i) off sink p1 (Nd (i + off) dl dh) s' p C1) as [C2 [D2 [G2 K2]]]; auto.
      { eapply den_grows; eauto. } { simpl. lia. } { discriminate. }
      split; auto. split; auto. split; [eapply grows_trans; eauto|]. right.
      intros L Z. assert (Z' := Z1 L (LH L Z)).
      destruct K2 as [[-> ->]|K2]; [exact Z'|]. apply K2, zeros_cons, Z'. }
    destruct t.
    + apply (STEP proc sink dproc (Leaf dv)); auto. simpl. repeat split; auto. intros L. apply zeros_swap.
    + apply (STEP sink proc (Leaf dv) dproc); auto. simpl. repeat split; auto.
    + intros E. apply (IH s X (S i) off sink proc dproc s' p); auto. eapply top_lt_weaken; eauto. simpl. lia.
Qed.

Lemma is_leaf_st_true s i v : is_leaf_st V V_eq_dec s i v = true -> exists c, nlookup s i = Some (mkn (SLeaf v) c).
Proof.
  unfold is_leaf_st. destruct (nlookup s i) as [[[u|lo hi x] c]|]; simpl; try discriminate.
  destruct (V_eq_dec u v); [subst; eauto|discriminate].
Qed.
Lemma is_leaf_st_den s i v d : den s i d -> is_leaf_st V V_eq_dec s i v = is_leaf_val V V_eq_dec d v.
Proof. intros D. unfold is_leaf_st. inversion D; subst; rewrite H; simpl; auto. Qed.

Lemma drop_sink {s X sink dv p d} : Core s X -> den s sink (Leaf dv) -> den s p d -> p <> sink ->
  built quiet s (if rc_of V s sink =? 0 then dispose_leaf s sink dv else s) X p d [sink] [].
Proof.
  intros C D Dp N. destruct (den_inv D) as [c E]. unfold rc_of. rewrite E. simpl. destruct c as [|c]; simpl.
  - constructor; [exact (del_node_core C E) | exact (del_node_den C E p d Dp N) | exact (del_node_quiet s sink (SLeaf dv)) |].
    exact (zeros_del_node s sink (SLeaf dv)).
  - constructor; [exact C | exact Dp | apply quiet_refl |].
    intros L Z j n Ej R. destruct (Z j n Ej R) as [<-|H]; auto. rewrite E in Ej. injection Ej as <-. discriminate.
Qed.

Lemma construct_st_core {s X asgn nd dv off dnode s' r} :
  Core s X -> den s nd dnode -> wf dnode -> top_lt dnode off -> construct_st s asgn nd dv off = (s', r) ->
  built quiet s s' (r :: X) r (construct_from asgn dnode dv off) [nd] [].
Proof.
  intros C D W T. unfold MtbddStoreDefs.construct_st, MtbddDefs.construct_from.
  rewrite (is_leaf_st_den s nd dv dnode D). destruct (is_leaf_val V V_eq_dec dnode dv) eqn:IL.
  - intros [= <- <-]. apply count_root; auto.
  - apply is_leaf_val_false in IL.
    destruct (spawn_leaf s dv) as [s1 sink] eqn:E1. destruct (chain_st s1 asgn 0 off sink nd) as [s2 proc] eqn:E2.
    destruct (spawn_leaf_core C E1) as [C1 D1 G1 Z1].
    destruct (chain_core dv asgn s1 X 0 off sink nd dnode s2 proc C1 D1 (den_grows G1 D) W T IL E2) as [C2 [D2 [G2 K2]]].
    destruct (grows_trans G1 G2) as [_ Q2].
    assert (Nsink : nd <> sink).
    { intros ->. apply IL. exact (den_fun (den_grows G1 D) D1). }
    assert (Z2 : forall L, zeros s (nd :: L) -> zeros s2 (sink :: proc :: L) /\ (proc <> nd -> zeros s2 (proc :: L))).
    { intros L Z. assert (Z' := Z1 _ Z). destruct K2 as [[-> ->]|K2]; [split; [exact Z'|congruence]|].
      split; [apply zeros_cons|intros _]; exact (K2 L Z'). }
    set (s3 := if proc =? nd then _ else s2).
    assert (S3 : built quiet s s3 X proc (chain V asgn 0 off (Leaf dv) dnode) [nd] [proc]).
    { unfold s3. destruct (Nat.eqb_spec proc nd) as [EP|NP].
      - destruct (drop_sink C2 (den_grows G2 D1) D2) as [C3 D3 Q3 Z3]; [congruence|].
        constructor; [exact C3 | exact D3 | eapply quiet_trans; eauto |].
        intros L Z. apply Z3, (Z2 L Z).
      - constructor; [exact C2 | exact D2 | exact Q2 |]. intros L Z. apply (Z2 L Z), NP. }
    intros [= <- <-]. destruct S3 as [C3 D3 Q3 Z3]. destruct (count_root C3 D3) as [C4 D4 Q4 Z4].
    constructor; [exact C4 | exact D4 | eapply quiet_trans; eauto |]. intros L Z. apply Z4, Z3, Z.
Qed.

Definition Inv (s : store) : Prop := Core s [] /\ zeros s [].
Lemma inv_empty : Inv (empty_store V).
Proof.
  split.
  - constructor; simpl; try constructor; try (intros; discriminate).
    + intros [c H]. discriminate.
    + intros [c H]. discriminate.
    + intros i [].
  - intros i n H. discriminate.
Qed.

Definition live (s : store) (h : nat) : Prop := hlookup s h <> None.
(* the liveness discipline of the client, and for OExtend the precondition of ExtendWith: the operand's
   variables lie below off *)
Definition valid_op (s : store) (o : op V) : Prop :=
  match o with
  | OConstruct _ h _ _ _ | OLeaf _ h _ => hlookup s h = None
  | OCopy _ h g => hlookup s h = None /\ live s g
  | OAssign _ h g => live s h /\ live s g
  | OApply1 _ h _ a => hlookup s h = None /\ live s a
  | OApply2 _ h _ a b => hlookup s h = None /\ live s a /\ live s b
  | OApply3 _ h _ a b c => hlookup s h = None /\ live s a /\ live s b /\ live s c
  | OExtend _ h _ off a => hlookup s h = None /\ exists ha, hlookup s a = Some ha /\ top_lt (ghost V ha) off
  | OPrefix _ h _ _ a => hlookup s h = None /\ live s a
  | ODestroy _ h => live s h
  end.
Lemma live_some s h : live s h -> exists hd, hlookup s h = Some hd.
Proof. unfold live. destruct (hlookup s h); [eauto|congruence]. Qed.
Lemma ghost_wf {s X h hd} : Core s X -> hlookup s h = Some hd -> wf (ghost V hd).
Proof. intros C E. exact (den_wf C (c_hden _ _ C h hd E)). Qed.

Theorem counts s i n : Inv s -> nlookup s i = Some n -> rc V n = cnt (reflist s) i /\ 1 <= rc V n.
Proof.
  intros [C Z] E. assert (R := c_cnt s [] C i n E). rewrite app_nil_r in R. split; auto.
  destruct (rc V n) eqn:Q; [destruct (Z i n E Q)|apply le_n_S, Nat.le_0_l].
Qed.
Theorem root_denotes_ghost s h hd : Inv s -> hlookup s h = Some hd ->
  den s (root V hd) (ghost V hd) /\ wf (ghost V hd).
Proof. intros [C _] E. split; [exact (c_hden s [] C h hd E) | exact (ghost_wf C E)]. Qed.

Definition frame_ok (s s' : store) (h : nat) : Prop := forall h', h' <> h -> hlookup s' h' = hlookup s h'.
Definition step_post (s : store) (h : nat) (r : option (store * list id)) : Prop :=
  match r with
  | Some (s', log) => Inv s' /\ frame_ok s s' h /\ log_ok s s' log /\ fresh_ok s s'
  | None => False
  end.

Lemma finish_new s s0 s1 h hd pre :
  quiet s s0 -> zeros s0 pre -> built quiet s0 s1 [root V hd] (root V hd) (ghost V hd) pre [] -> hlookup s h = None ->
  step_post s h (Some (add_handle s1 h hd, [])).
Proof.
  intros Q0 Z0 [C D Q1 Z] N. destruct (quiet_trans _ _ _ Q0 Q1) as [H F]. rewrite <- (app_nil_r pre) in Z0.
  split; [split|split; [|split]].
  - apply add_handle_core; auto. rewrite (hlookup_handles s s1); auto.
  - exact (Z [] Z0).
  - intros h' N'. rewrite hlookup_add. destruct (Nat.eq_dec h' h); [congruence|]. apply hlookup_handles. exact H.
  - split; [constructor|intros j []].
  - exact F.
Qed.

Lemma make_ok s h d dv : Inv s -> wf d -> hlookup s h = None -> step_post s h (Some (make s h d dv, [])).
Proof.
  intros [C Z] W F. unfold MtbddStoreDefs.make. destruct (intern s d) as [s1 i] eqn:E.
  destruct (intern_core d s [] s1 i C W E) as [C1 D1 [_ Q1] Z1].
  exact (finish_new s s1 _ h (mkh i dv d) [i] Q1 (Z1 [] Z) (count_root C1 D1) F).
Qed.

Lemma construct_ok s s1 h asgn nd dv off dnode :
  Core s1 [] -> zeros s1 [nd] -> quiet s s1 -> den s1 nd dnode -> wf dnode -> top_lt dnode off -> hlookup s h = None ->
  step_post s h (let (s2, r) := construct_st s1 asgn nd dv off in
                 Some (add_handle s2 h (mkh r dv (construct_from asgn dnode dv off)), [])).
Proof.
  intros C Z Q D W T F. destruct (construct_st s1 asgn nd dv off) as [s2 r] eqn:E.
  exact (finish_new s s1 s2 h (mkh r dv _) [nd] Q Z (construct_st_core C D W T E) F).
Qed.

Lemma copy_ok s h g hg : Inv s -> hlookup s h = None -> hlookup s g = Some hg ->
  step_post s h (Some (add_handle (inc_rc s (root V hg)) h hg, [])).
Proof.
  intros [C Z] F Eg.
  exact (finish_new s s _ h hg [root V hg] (quiet_refl s) (zeros_cons s _ [] Z) (count_root C (c_hden _ _ C g hg Eg)) F).
Qed.

Lemma release_handle {s h hh} : Inv s -> hlookup s h = Some hh ->
  match release (ghost V hh) (del_handle s h) (root V hh) with
  | Some (s1, log) => hlookup s1 h = None /\ step_post s h (Some (s1, log))
  | None => False
  end.
Proof.
  intros [C Z] E. assert (SX : sext s (del_handle s h)) by exact (sext_refl s).
  assert (P := release_core (ghost V hh) (del_handle s h) [] (root V hh) (del_handle_core C E)
                 (den_sext SX (c_hden _ _ C h hh E))).
  destruct (release _ _ _) as [[s1 log]|]; [|destruct P]. destruct P as [C1 [_ [H F] Z1 LG]].
  assert (HL : forall h', hlookup s1 h' = if Nat.eq_dec h' h then None else hlookup s h').
  { intros h'. rewrite (hlookup_handles _ _ h' H). apply hlookup_del. }
  split; [rewrite HL; destruct (Nat.eq_dec h h); congruence|].
  split; [split; [exact C1|exact (Z1 [] Z)]|].
  split; [intros h' N; rewrite HL; destruct (Nat.eq_dec h' h); congruence|]. split; [exact LG|exact F].
Qed.

Definition dead (s : store) (j : id) : Prop := j < next V s /\ nlookup s j = None.
Lemma dead_fresh {s s' j} : fresh_ok s s' -> dead s j -> dead s' j.
Proof.
  intros [A B] [L N]. split; [lia|]. destruct (nlookup s' j) eqn:E; auto.
  destruct (B j) as [H|H]; [congruence|congruence|lia].
Qed.
Lemma log_dead {s X s' log} j : Core s X -> log_ok s s' log -> fresh_ok s s' -> In j log -> ~ dead s j /\ dead s' j.
Proof.
  intros C [_ L] [F _] H. destruct (L j H) as [A B]. split; [intros [_ Q]; congruence|]. split; auto.
  apply (in_heap_lt C) in A. lia.
Qed.

Theorem step_ok s o : Inv s -> valid_op s o -> step_post s (target V o) (step s o).
Proof.
  intros Iv Vd. pose proof Iv as [C Z].
  destruct o as [h asgn v dv|h v|h g|h g|h f a|h f a b|h f a b c|h asgn off a|h asgn off a|h]; simpl in *.
  - rewrite Vd. simpl. destruct (spawn_leaf s v) as [s1 nd] eqn:E1.
    destruct (spawn_leaf_core C E1) as [C1 D1 [_ Q1] Z1].
    exact (construct_ok s s1 h asgn nd dv 0 (Leaf v) C1 (Z1 [] Z) Q1 D1 I I Vd).
  - rewrite Vd. simpl. assert (M := make_ok s h (Leaf v) v Iv I Vd). unfold MtbddStoreDefs.make in M. simpl in M.
    destruct (spawn_leaf s v) as [s1 r]. exact M.
  - destruct Vd as [F L]. destruct (live_some s g L) as [hg Eg]. rewrite F, Eg. exact (copy_ok s h g hg Iv F Eg).
  - destruct Vd as [Lh Lg]. destruct (live_some s h Lh) as [hh Eh]. destruct (live_some s g Lg) as [hg Eg]. rewrite Eh, Eg.
    destruct (Nat.eqb_spec h g) as [_|Nhg].
    + split; auto. split; [intros h' _; reflexivity|]. split; [split; [constructor|intros j []]|apply fresh_refl].
    + assert (P := release_handle Iv Eh). destruct (release _ _ _) as [[s1 log]|]; [|destruct P].
      destruct P as [Fh1 [I1 [FR [LG F1]]]].
      destruct (copy_ok s1 h g hg I1 Fh1) as [I2 [FR2 [_ F3]]]; [rewrite FR; auto|].
      split; [exact I2|]. split; [intros h' N'; rewrite (FR2 h' N'); auto|].
      split; [|eapply fresh_trans; eauto]. split; [apply LG|]. intros j Hj. split; [apply LG, Hj|].
      apply (dead_fresh F3), (log_dead j C LG F1 Hj).
  - destruct Vd as [F L]. destruct (live_some s a L) as [ha Ea]. rewrite F, Ea. simpl.
    apply make_ok; auto. apply apply1_wf. eapply ghost_wf; eauto.
  - destruct Vd as [F [La Lb]]. destruct (live_some s a La) as [ha Ea]. destruct (live_some s b Lb) as [hb Eb]. rewrite F, Ea, Eb. simpl.
    apply make_ok; auto. apply apply2_wf; eapply ghost_wf; eauto.
  - destruct Vd as [F [La [Lb Lc]]]. destruct (live_some s a La) as [ha Ea]. destruct (live_some s b Lb) as [hb Eb].
    destruct (live_some s c Lc) as [hc Ec]. rewrite F, Ea, Eb, Ec. simpl.
    apply make_ok; auto. apply apply3_wf; eapply ghost_wf; eauto.
  - destruct Vd as [F [ha [Ea T]]]. rewrite F, Ea. simpl.
    exact (construct_ok s s h asgn _ _ off _ C (zeros_cons s _ [] Z) (quiet_refl s) (c_hden _ _ C a ha Ea) (ghost_wf C Ea) T F).
  - destruct Vd as [F L]. destruct (live_some s a L) as [ha Ea]. rewrite F, Ea. simpl.
    apply make_ok; auto. apply prefix_wf. eapply ghost_wf; eauto.
  - destruct (live_some s h Vd) as [hh Eh]. rewrite Eh.
    assert (P := release_handle Iv Eh). destruct (release _ _ _) as [[s1 log]|]; [apply P|destruct P].
Qed.
Theorem step_inv s o : Inv s -> valid_op s o -> exists s' log, step s o = Some (s', log) /\ Inv s'.
Proof.
  intros I Vd. assert (P := step_ok s o I Vd). destruct (step s o) as [[s' log]|]; [|destruct P].
  exists s', log. split; [reflexivity|apply P].
Qed.
Lemma step_some_post s o s' log : Inv s -> valid_op s o -> step s o = Some (s', log) ->
  Inv s' /\ frame_ok s s' (target V o) /\ log_ok s s' log /\ fresh_ok s s'.
Proof.
  intros I Vd E. assert (P := step_ok s o I Vd). rewrite E in P. exact P.
Qed.

Notation ev := (ev V).
Notation run := (run V V_eq_dec).

Lemma den_inj {s X d i j} : Core s X -> den s i d -> den s j d -> i = j.
Proof.
  intros C. revert i j. induction d as [v|x l IHl h IHh]; intros i j Di Dj.
  - destruct (den_inv Di) as [ci Ei], (den_inv Dj) as [cj Ej]. exact (shape_inj C Ei Ej).
  - destruct (den_inv Di) as [lo [hi [ci [Ei [Dl Dh]]]]], (den_inv Dj) as [lo2 [hi2 [cj [Ej [Dl2 Dh2]]]]].
    rewrite (IHl _ _ Dl Dl2), (IHh _ _ Dh Dh2) in Ei. exact (shape_inj C Ei Ej).
Qed.

(* operator== (equality of roots) holds exactly when the two objects denote the same function *)
Theorem root_eq_iff_same_function s X h1 h2 hd1 hd2 :
  Core s X -> hlookup s h1 = Some hd1 -> hlookup s h2 = Some hd2 ->
  (root V hd1 = root V hd2 <-> forall sg, ev (ghost V hd1) sg = ev (ghost V hd2) sg).
Proof.
  intros C E1 E2. assert (D1 := c_hden _ _ C h1 hd1 E1). assert (D2 := c_hden _ _ C h2 hd2 E2). split.
  - intros Q sg. rewrite Q in D1. rewrite (den_fun D1 D2). reflexivity.
  - intros Q. assert (G : ghost V hd1 = ghost V hd2).
    { apply canonical; auto; eapply ghost_wf; eauto. }
    rewrite G in D1. eapply den_inj; eauto.
Qed.


Theorem frame s o s' log h hd : Inv s -> valid_op s o -> step s o = Some (s', log) ->
  h <> target V o -> hlookup s h = Some hd ->
  hlookup s' h = Some hd /\ forall d, den s (root V hd) d -> den s' (root V hd) d.
Proof.
  intros I Vd E N Eh. destruct (step_some_post s o s' log I Vd E) as [[C' _] [F _]].
  assert (Eh' : hlookup s' h = Some hd) by (rewrite (F h N); exact Eh).
  split; auto. intros d D. destruct I as [C _].
  rewrite (den_fun D (c_hden _ _ C h hd Eh)). apply (c_hden _ _ C' h hd Eh').
Qed.

(* that the step runs without fault is step_inv *)
Theorem no_double_release s o s' log : Inv s -> valid_op s o -> step s o = Some (s', log) ->
  NoDup log /\ forall j, In j log -> nlookup s j <> None /\ nlookup s' j = None /\ ~ In j (reflist s').
Proof.
  intros I Vd E. destruct (step_some_post s o s' log I Vd E) as [[C' _] [_ [[ND L] _]]]. split; auto.
  intros j Hj. destruct (L j Hj) as [A B]. split; auto. split; auto. intros H.
  exact (refs_live C' (in_or_app _ [] j (or_introl H)) B).
Qed.

Fixpoint valid_run (s : store) (os : list (op V)) : Prop :=
  match os with
  | [] => True
  | o :: r => valid_op s o /\ forall s1 l1, step s o = Some (s1, l1) -> valid_run s1 r
  end.

(* over a whole history: the invariant again; objects the history does not write are untouched; no node
   is deleted twice: the concatenated log has no duplicates, every deleted node was alive (not dead) at
   the start of the history or created during it, and is dead at the end *)
Theorem run_ok os : forall s, Inv s -> valid_run s os ->
  match run s os with
  | Some (s', log) => Inv s' /\
    (forall h, (forall o, In o os -> target V o <> h) -> hlookup s' h = hlookup s h) /\
    NoDup log /\ (forall j, In j log -> ~ dead s j /\ dead s' j) /\ fresh_ok s s'
  | None => False
  end.
Proof.
  induction os as [|o r IH]; intros s I Vr; simpl.
  - split; auto. split; auto. split; [constructor|]. split; [intros j []|apply fresh_refl].
  - destruct Vr as [Vo Vr]. assert (P := step_ok s o I Vo). destruct (step s o) as [[s1 l1]|]; [|destruct P].
    destruct P as [I1 [H1 [L1 F1]]]. assert (P := IH s1 I1 (Vr s1 l1 eq_refl)).
    destruct (run s1 r) as [[s2 l2]|]; [|destruct P]. destruct P as [I2 [H2 [ND2 [L2 F2]]]].
    assert (D1 := fun j => log_dead j (proj1 I) L1 F1).
    split; auto. split; [|split; [|split]].
    + intros h Hh. rewrite H2 by (intros o' Ho'; apply Hh; simpl; auto). apply H1. intros Q. apply (Hh o); simpl; auto.
    + apply NoDup_app. split; [apply L1|]. split; auto. intros j A B. apply (proj1 (L2 j B)), (D1 j A).
    + intros j Hj. apply in_app_or in Hj as [Hj|Hj].
      * destruct (D1 j Hj) as [A B]. split; auto. eapply dead_fresh; eauto.
      * destruct (L2 j Hj) as [A B]. split; auto. intros Q. apply A. eapply dead_fresh; eauto.
    + eapply fresh_trans; eauto.
Qed.
Theorem run_no_double_release os : forall s s' log, Inv s -> valid_run s os -> run s os = Some (s', log) ->
  NoDup log /\ (forall j, In j log -> ~ dead s j /\ dead s' j) /\ fresh_ok s s'.
Proof.
  intros s s' log I Vr E. assert (P := run_ok os s I Vr). rewrite E in P. apply P.
Qed.
Theorem run_inv os s : Inv s -> valid_run s os -> exists s' log, run s os = Some (s', log) /\ Inv s'.
Proof.
  intros I Vr. assert (P := run_ok os s I Vr). destruct (run s os) as [[s' log]|]; [|destruct P].
  exists s', log. split; [reflexivity|apply P].
Qed.

Definition live_dd (s : store) (d : dd) : Prop := exists h hd, hlookup s h = Some hd /\ ghost V hd = d.

(* without garbage every node is reached from a live object, so a store that has the live diagrams of s0
   has a node for every diagram denoted in s0 *)
Lemma denoted_same s0 s1 : Inv s0 -> Inv s1 -> (forall d, live_dd s0 d -> live_dd s1 d) ->
  forall i d, den s0 i d -> exists j, den s1 j d.
Proof.
  intros [C0 Z0] [C1 _] L i. remember (next V s0 - i) as k eqn:Hk. assert (Hk' : next V s0 - i <= k) by lia. clear Hk.
  revert i Hk'. induction k as [|k IH]; intros i Hk d D; assert (N := den_in D).
  - apply (in_heap_lt C0) in N. lia.
  - destruct (nlookup s0 i) as [n|] eqn:E; [|congruence].
    assert (P : In i (reflist s0)).
    { destruct (counts s0 i n (conj C0 Z0) E) as [R P]. apply cnt_pos. rewrite <- R. exact P. }
    apply (in_reflist C0) in P as [[h [hd [Eh R]]]|[j [sh [c [Ej Hc]]]]].
    + assert (Dh := c_hden _ _ C0 h hd Eh). rewrite R in Dh. rewrite (den_fun D Dh).
      destruct (L (ghost V hd)) as [h' [hd' [Eh' <-]]]; [exists h, hd; auto|]. exists (root V hd'). exact (c_hden _ _ C1 h' hd' Eh').
    + destruct (child_den C0 Ej Hc) as [x [l [hh [Lt [Dj Q]]]]]. assert (Lj := c_fresh _ _ C0 j _ Ej).
      destruct (IH j) with (d := Nd x l hh) as [j' Dj']; [lia|exact Dj|].
      destruct (den_inv Dj') as [lo' [hi' [c' [_ [Dl' Dh']]]]]. destruct Q as [Q|Q]; rewrite (den_fun D Q); eauto.
Qed.

Lemma inj_length {A B} (R : A -> B -> Prop) (l1 : list A) : forall (l2 : list B),
  NoDup l1 -> (forall a, In a l1 -> exists b, In b l2 /\ R a b) ->
  (forall a a' b, In a l1 -> In a' l1 -> R a b -> R a' b -> a = a') ->
  length l1 <= length l2.
Proof.
  induction l1 as [|a r IH]; intros l2 N1 T Inj; simpl; [lia|].
  destruct (T a (or_introl eq_refl)) as [b [Hb Rab]].
  apply in_split in Hb as [u [w ->]]. rewrite app_length. simpl. rewrite <- plus_n_Sm, <- app_length. apply le_n_S.
  inversion N1; subst. apply IH; auto.
  - intros a' Ha'. destruct (T a' (or_intror Ha')) as [b' [Hb' Rb']].
    exists b'. split; auto. apply in_app_or in Hb' as [Q|[Q|Q]]; [apply in_or_app; auto| |apply in_or_app; auto].
    subst b'. exfalso. assert (a = a') by (eapply (Inj a a' b); simpl; eauto). subst. contradiction.
  - intros a1 a2 b0 H1' H2'. apply Inj; simpl; auto.
Qed.

Lemma sizes_le s0 s1 : Inv s0 -> Inv s1 -> (forall d, live_dd s0 d -> live_dd s1 d) ->
  leaf_size V s0 <= leaf_size V s1 /\ int_size V s0 <= int_size V s1.
Proof.
  intros I0 I1 L. assert (DS := denoted_same s0 s1 I0 I1 L). destruct I0 as [C0 _]. destruct I1 as [C1 _]. split.
  - unfold leaf_size. rewrite <- (map_length fst (ltab V s0)), <- (map_length fst (ltab V s1)).
    apply NoDup_incl_length; [apply C0|]. intros v Hv.
    destruct (lookup V_eq_dec (ltab V s0) v) as [i|] eqn:E; [|apply lookup_none in E; contradiction].
    apply (c_ltab _ _ C0) in E as [c E]. destruct (DS i _ (den_leaf _ _ _ _ E)) as [j Dj].
    apply (lookup_some_key _ _ V_eq_dec _ _ j). apply (c_ltab _ _ C1). exact (den_inv Dj).
  - unfold int_size. apply (inj_length (fun e e' : ikey * id => exists d, den s0 (snd e) d /\ den s1 (snd e') d)).
    + apply (NoDup_map_inv fst), C0.
    + intros [[[lo hi] x] i] He. apply (in_lookup ikey_eq_dec) in He; [|apply C0].
      apply (c_itab _ _ C0) in He as [c E]. destruct (c_den _ _ C0 i _ E) as [d [Dd _]]. destruct (DS i d Dd) as [j Dj].
      destruct (den_node Dd E) as [l [h [-> _]]]. destruct (den_inv Dj) as [lo2 [hi2 [c2 [Ej _]]]].
      exists ((lo2, hi2, x), j). split; [|exists (Nd x l h); auto].
      apply (lookup_in ikey_eq_dec). apply (c_itab _ _ C1). eauto.
    + intros [[[lo hi] x] i] [[[lo' hi'] x'] i'] b Ha Ha' [d [P Q]] [d' [P' Q']]. simpl in *.
      rewrite (den_fun Q Q') in P. assert (i = i') by exact (den_inj C0 P P'). subst i'.
      apply (in_lookup ikey_eq_dec) in Ha; [|apply C0]. apply (in_lookup ikey_eq_dec) in Ha'; [|apply C0].
      apply (c_itab _ _ C0) in Ha as [c E]. apply (c_itab _ _ C0) in Ha' as [c' E']. congruence.
Qed.

Theorem sizes_determined s0 s1 : Inv s0 -> Inv s1 -> (forall d, live_dd s0 d <-> live_dd s1 d) ->
  leaf_size V s0 = leaf_size V s1 /\ int_size V s0 = int_size V s1.
Proof.
  intros I0 I1 L. destruct (sizes_le s0 s1 I0 I1 (fun d => proj1 (L d))). destruct (sizes_le s1 s0 I1 I0 (fun d => proj2 (L d))). lia.
Qed.

Theorem baseline s0 os s1 log : Inv s0 -> valid_run s0 os -> run s0 os = Some (s1, log) ->
  (forall o, In o os -> hlookup s0 (target V o) = None) ->
  (forall h, hlookup s1 h <> None -> hlookup s0 h <> None) ->
  leaf_size V s1 = leaf_size V s0 /\ int_size V s1 = int_size V s0.
Proof.
  intros I0 Vr E New Back. assert (P := run_ok os s0 I0 Vr). rewrite E in P. destruct P as [I1 [F _]].
  assert (K : forall h, hlookup s0 h <> None -> hlookup s1 h = hlookup s0 h).
  { intros h Lh. apply F. intros o Ho Q. apply Lh. rewrite <- Q. apply New. exact Ho. }
  destruct (sizes_determined s0 s1 I0 I1) as [A B]; [|split; congruence].
  intros d. split; intros [h [hd [Eh G]]]; exists h, hd; split; auto.
  - rewrite K; congruence.
  - rewrite <- K; auto. apply Back. congruence.
Qed.
End STOREP.

Definition example_ops : list (op nat) :=
  [OConstruct nat 0 [T1; T0] 1 0; OConstruct nat 1 [TX; T1] 2 0; OApply2 nat 2 Nat.add 0 1; OCopy nat 3 2;
   OAssign nat 0 0; OAssign nat 0 1; ODestroy nat 1; ODestroy nat 2; ODestroy nat 0; ODestroy nat 3].
Lemma example_run :
  option_map (fun p => (leaf_size nat (fst p), int_size nat (fst p), length (snd p)))
             (run nat Nat.eq_dec (empty_store nat) example_ops) = Some (0, 0, 7) /\
  option_map (fun p => (leaf_size nat (fst p), int_size nat (fst p)))
             (run nat Nat.eq_dec (empty_store nat) (firstn 4 example_ops)) = Some (3, 4).
Proof. vm_compute. auto. Qed.
