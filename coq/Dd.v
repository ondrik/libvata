(* the bare diagram type: reduced ordered multi-terminal decision diagrams as trees. It is a copy of
   the type of MtbddDefs.v, and canonicity is carried over from there. *)
From Coq Require Import List Arith.
From V Require MtbddDefs MtbddProofs.
Import ListNotations.

Section DD.
Variable V : Type.
Variable V_eq_dec : forall a b : V, {a = b} + {a <> b}.

Inductive dd := Leaf (v : V) | Nd (x : nat) (lo hi : dd).

Definition dd_eq_dec : forall a b : dd, {a = b} + {a <> b}.
Proof. decide equality. apply Nat.eq_dec. Defined.

Definition asg := nat -> bool.
Fixpoint ev (d : dd) (s : asg) : V :=
  match d with Leaf v => v | Nd x lo hi => if s x then ev hi s else ev lo s end.

(* variables strictly decrease from the root: root carries the highest index *)
Definition top_lt (d : dd) (b : nat) : Prop := match d with Leaf _ => True | Nd x _ _ => x < b end.
Fixpoint wf (d : dd) : Prop :=
  match d with
  | Leaf _ => True
  | Nd x lo hi => lo <> hi /\ top_lt lo x /\ top_lt hi x /\ wf lo /\ wf hi
  end.

Fixpoint below (d : dd) (b : nat) : Prop :=
  match d with Leaf _ => True | Nd x lo hi => x < b /\ below lo b /\ below hi b end.

Fixpoint model (d : dd) : MtbddDefs.dd V :=
  match d with Leaf v => MtbddDefs.Leaf v | Nd x lo hi => MtbddDefs.Nd x (model lo) (model hi) end.
Lemma model_inj a : forall b, model a = model b -> a = b.
Proof. induction a; destruct b; simpl; intros [= ]; f_equal; auto. Qed.
Lemma model_ev d s : MtbddDefs.ev V (model d) s = ev d s.
Proof. induction d; simpl; auto. rewrite IHd1, IHd2. reflexivity. Qed.
Lemma model_wf d : wf d -> MtbddProofs.wf V (model d).
Proof.
  induction d as [v|x lo IHlo hi IHhi]; simpl; auto. intros (N & Tl & Th & Wl & Wh).
  repeat split; auto; [intros E; apply N, model_inj, E | destruct lo | destruct hi]; auto.
Qed.

Theorem canonical : forall a b, wf a -> wf b -> (forall s, ev a s = ev b s) -> a = b.
Proof.
  intros a b Wa Wb E. apply model_inj, MtbddProofs.canonical; auto using model_wf.
  intros s. rewrite !model_ev. apply E.
Qed.
End DD.
Print Assumptions canonical.
