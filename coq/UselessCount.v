(* C03 — how RemoveUselessStates / IsLangEmpty find the productive states (src/explicit_tree_useless.cc), with the code's data
   structures: every rule carries a counter of its DISTINCT children that are not yet known to be productive; a work list holds the
   states found productive and not yet propagated; popping a state decrements the counter of every rule that has it among its
   children, and a counter that reaches zero makes the rule's parent productive (marked and pushed unless it is marked already).
   Fuel-indexed; None = out of fuel. Theorem: a run that ends has marked exactly the states that generate a tree. Two variants are
   refuted: decrementing by the number of occurrences instead of once per distinct child, and waiting only for the first k child
   positions (the changes seeded/c03 and seeded/c03f). *)
From Coq Require Import List NArith Bool Arith Lia.
Import ListNotations.
From V Require Import ListAux Sem Prod.

Definition dch (r : rule) : list N := nodup N.eq_dec (ch r).

(* a counter reaching zero fires: the parent is marked and pushed unless it is marked already *)
Definition fire (q : N) (st : list N * list N) (rc : rule * nat) : list N * list N :=
  if memN q (ch (fst rc)) && Nat.eqb (snd rc) 1 && negb (memN (par (fst rc)) (fst st))
  then (par (fst rc) :: fst st, snd st ++ [par (fst rc)]) else st.
Definition dec (q : N) (rc : rule * nat) : rule * nat := if memN q (ch (fst rc)) then (fst rc, pred (snd rc)) else rc.

Record ust := { rcs : list (rule * nat); marked : list N; todo : list N; popped : list N }.

Fixpoint urun (fuel : nat) (s : ust) : option (list N) :=
  match fuel with
  | 0 => None
  | S f =>
      match todo s with
      | [] => Some (marked s)
      | q :: T =>
          let st := fold_left (fire q) (rcs s) (marked s, T) in
          urun f {| rcs := map (dec q) (rcs s); marked := fst st; todo := snd st; popped := popped s ++ [q] |}
      end
  end.

(* the start: counters = number of distinct children; the parents of leaf rules are productive *)
Definition fire0 (st : list N * list N) (r : rule) : list N * list N :=
  match ch r with
  | [] => if memN (par r) (fst st) then st else (par r :: fst st, snd st ++ [par r])
  | _ => st
  end.
Definition uinit (A : ta) : ust :=
  let st := fold_left fire0 (rules A) ([], []) in
  {| rcs := map (fun r => (r, length (dch r))) (rules A); marked := fst st; todo := snd st; popped := [] |}.
Definition productive_count (A : ta) (fuel : nat) : option (list N) := urun fuel (uinit A).

Definition push (st : list N * list N) (x : N) : list N * list N :=
  if memN x (fst st) then st else (x :: fst st, snd st ++ [x]).

Lemma fire_eq q st rc : fire q st rc = if memN q (ch (fst rc)) && Nat.eqb (snd rc) 1 then push st (par (fst rc)) else st.
Proof. unfold fire, push. destruct (memN q (ch (fst rc)) && Nat.eqb (snd rc) 1); [destruct (memN (par (fst rc)) (fst st))|]; reflexivity. Qed.
Lemma fire0_eq st r : fire0 st r = if match ch r with [] => true | _ => false end then push st (par r) else st.
Proof. unfold fire0. destruct (ch r); reflexivity. Qed.

Definition WL (P : list N) (st : list N * list N) : Prop :=
  NoDup (P ++ snd st) /\ forall x, In x (fst st) <-> In x (P ++ snd st).

Lemma push_spec P st x : WL P st -> WL P (push st x) /\ forall y, In y (fst (push st x)) <-> x = y \/ In y (fst st).
Proof.
  intros [ND HM]. unfold push. destruct (memN x (fst st)) eqn:E.
  - apply memN_In in E. split; [split; auto|]. intros y. split; auto. intros [<-|]; auto.
  - apply memN_false in E. rewrite HM in E. unfold WL. simpl. rewrite app_assoc. split; [split|reflexivity].
    + apply NoDup_snoc; auto.
    + intros y. rewrite in_app_iff, <- HM. simpl. split; [intros [H|H] | intros [H|[H|[]]]]; auto.
Qed.

Lemma fold_push {X} {c : X -> bool} {g : X -> N} {f P} : (forall st a, f st a = if c a then push st (g a) else st) ->
  forall L st, WL P st ->
  WL P (fold_left f L st) /\ forall y, In y (fst (fold_left f L st)) <-> In y (fst st) \/ In y (map g (filter c L)).
Proof.
  intros Hf. induction L as [|a L IH]; simpl; intros st W; [split; [exact W | intros y; tauto]|].
  rewrite Hf. destruct (c a); [|exact (IH st W)].
  destruct (push_spec P st (g a) W) as [W1 H1]. destruct (IH _ W1) as [W2 H2]. split; [exact W2|].
  intros y. rewrite H2, H1. simpl. split; [intros [[H|H]|H] | intros [H|[H|H]]]; auto.
Qed.

Definition notin (done : list N) (x : N) : bool := negb (memN x done).

Lemma notin_snoc done q x : notin (done ++ [q]) x = notin done x && negb (N.eqb x q).
Proof. unfold notin, memN. rewrite existsb_app. simpl. rewrite orb_false_r. apply negb_orb. Qed.

Lemma filter_pop l done q : ~ In q done ->
  length (filter (notin (done ++ [q])) l) + count_occ N.eq_dec l q = length (filter (notin done) l).
Proof.
  intros Hq. induction l as [|x l IH]; simpl; auto. rewrite notin_snoc. destruct (N.eq_dec x q) as [->|Hx].
  - assert (E : notin done q = true) by apply negb_true_iff, memN_false, Hq. rewrite E, N.eqb_refl. simpl. lia.
  - apply N.eqb_neq in Hx. rewrite Hx, andb_true_r. destruct (notin done x); simpl; [f_equal|]; exact IH.
Qed.

Lemma dch_in r x : In x (dch r) <-> In x (ch r). Proof. apply nodup_In. Qed.

(* the counter of r when the states P have been popped *)
Definition pending (P : list N) (r : rule) : nat := length (filter (notin P) (dch r)).

Lemma pending_pop P q r : ~ In q P -> pending (P ++ [q]) r + (if memN q (ch r) then 1 else 0) = pending P r.
Proof.
  intros Hq. unfold pending. rewrite <- (filter_pop (dch r) P q Hq). f_equal. symmetry. destruct (memN q (ch r)) eqn:E.
  - apply NoDup_count_occ'; [apply NoDup_nodup | apply dch_in, memN_In, E].
  - apply count_occ_not_In. rewrite dch_in. apply memN_false, E.
Qed.

Lemma pending_0 P r : pending P r = 0 <-> incl (ch r) P.
Proof.
  unfold pending. rewrite length_zero_iff_nil, filter_nil. split; intros H c Hc.
  - apply memN_In, negb_false_iff, H, dch_in, Hc.
  - apply negb_false_iff, memN_In, H, dch_in, Hc.
Qed.

Lemma pending_last P q r : ~ In q P -> In q (ch r) -> pending P r = 1 <-> incl (ch r) (P ++ [q]).
Proof.
  intros Hq Hr. rewrite <- pending_0, <- (pending_pop P q r Hq). apply memN_In in Hr. rewrite Hr. lia.
Qed.

(* the rules fired when q is popped are those for which q was the last child waited for *)
Lemma fired_in {P q} rs x : ~ In q P ->
  In x (map (fun rc => par (fst rc)) (filter (fun rc => memN q (ch (fst rc)) && Nat.eqb (snd rc) 1) (map (fun r => (r, pending P r)) rs))) <->
  exists r, In r rs /\ In q (ch r) /\ incl (ch r) (P ++ [q]) /\ par r = x.
Proof.
  intros Hq. rewrite in_map_iff. split.
  - intros (rc & <- & H). apply filter_In in H as [H H1]. apply in_map_iff in H as (r & <- & Hr). simpl in *.
    apply andb_true_iff in H1 as [Hi H1]. apply memN_In in Hi. apply Nat.eqb_eq, (pending_last P q r Hq Hi) in H1. exists r. auto.
  - intros (r & Hr & Hi & Hc & <-). exists (r, pending P r). split; [reflexivity|]. apply filter_In. split; [apply in_map_iff; eauto|].
    simpl. apply andb_true_iff. split; [apply memN_In, Hi | apply Nat.eqb_eq, (pending_last P q r Hq Hi), Hc].
Qed.

Section Run.
Variable A : ta.

Record UInv (s : ust) : Prop := {
  ui_counters : rcs s = map (fun r => (r, pending (popped s) r)) (rules A);
  ui_worklist : WL (popped s) (marked s, todo s);
  ui_fired : forall r, In r (rules A) -> incl (ch r) (popped s) -> In (par r) (marked s);
  ui_sound : forall x, In x (marked s) -> exists t, reach A t x }.

Lemma ustep_inv s q T : UInv s -> todo s = q :: T ->
  let st := fold_left (fire q) (rcs s) (marked s, T) in
  UInv {| rcs := map (dec q) (rcs s); marked := fst st; todo := snd st; popped := popped s ++ [q] |}.
Proof.
  intros [J1 J2 J3 J4] Et. rewrite Et in J2.
  assert (Hq : ~ In q (popped s)) by (intros H; apply (NoDup_remove_2 _ _ _ (proj1 J2)), in_or_app; auto).
  assert (W : WL (popped s ++ [q]) (marked s, T)) by (unfold WL; rewrite <- app_assoc; exact J2).
  destruct (fold_push (fire_eq q) (rcs s) _ W) as [W' HM].
  constructor; cbn [rcs marked todo popped].
  - rewrite J1, map_map. apply map_ext. intros r. unfold dec. simpl. rewrite <- (pending_pop _ q r Hq).
    destruct (memN q (ch r)); [rewrite Nat.add_1_r | rewrite Nat.add_0_r]; reflexivity.
  - exact W'.
  - intros r Hr Hc. apply HM. destruct (in_dec N.eq_dec q (ch r)) as [Hi|Hn].
    + right. rewrite J1. apply (fired_in _ _ Hq). exists r. auto.
    + left. apply J3; auto. intros c Hc'. destruct (in_app_or _ _ _ (Hc c Hc')) as [H|[<-|[]]]; [exact H | contradiction].
  - intros x Hx. apply HM in Hx as [Hx|Hx]; auto. rewrite J1 in Hx. apply (fired_in _ _ Hq) in Hx as (r & Hr & _ & Hc & <-).
    apply reach_rule; auto. intros c Hc'. apply J4, (proj2 W c), in_or_app. left. exact (Hc c Hc').
Qed.

Lemma urun_inv : forall fuel s M, UInv s -> urun fuel s = Some M -> exists s', UInv s' /\ todo s' = [] /\ marked s' = M.
Proof.
  induction fuel as [|f IH]; intros s M HI H; simpl in H; [discriminate|].
  destruct (todo s) as [|q T] eqn:Et.
  - inversion H; subst. exists s. auto.
  - apply (IH _ M (ustep_inv s q T HI Et) H).
Qed.

Lemma uinit_inv : UInv (uinit A).
Proof.
  assert (W : WL [] ([], [])) by (split; [constructor | tauto]).
  destruct (fold_push fire0_eq (rules A) _ W) as [W' HM].
  constructor; cbn [uinit rcs marked todo popped].
  - apply map_ext. intros r. unfold pending. rewrite filter_all; auto.
  - exact W'.
  - intros r Hr Hc. apply HM. right. apply in_map, filter_In. split; [exact Hr|]. rewrite (incl_l_nil Hc). reflexivity.
  - intros x Hx. apply HM in Hx as [[]|Hx]. apply in_map_iff in Hx as (r & <- & Hx). apply filter_In in Hx as [Hr Hc].
    apply reach_rule; auto. destruct (ch r); [intros c [] | discriminate].
Qed.

Theorem productive_count_exact fuel M : productive_count A fuel = Some M -> forall q, In q M <-> exists t, reach A t q.
Proof.
  intros H. destruct (urun_inv fuel (uinit A) M uinit_inv H) as (s & [_ [_ J2] J3 J4] & Et & <-).
  rewrite Et, app_nil_r in J2. intros q. split; [apply J4|]. intros [t Ht]. revert t q Ht. apply reach_closed.
  intros r Hr Hc. apply J3; auto. intros c Hc'. apply J2, Hc, Hc'.
Qed.
End Run.

Corollary productive_count_is_productive A fuel M : productive_count A fuel = Some M -> forall q, In q M <-> In q (productive A).
Proof. intros H q. rewrite (productive_count_exact A fuel M H q). symmetry. apply productive_spec. Qed.

(* two variants that look equivalent and are not:
   (i) the counter holds the number of DISTINCT children but is decremented once per OCCURRENCE of the popped state;
   (ii) only the first k child positions are waited for (a mask that is too short) *)
Definition dec_occ (q : N) (rc : rule * nat) : rule * nat := (fst rc, snd rc - count_occ N.eq_dec (ch (fst rc)) q).
Definition fire_occ (q : N) (st : list N * list N) (rc : rule * nat) : list N * list N :=
  if memN q (ch (fst rc)) && Nat.leb (snd rc) (count_occ N.eq_dec (ch (fst rc)) q) && negb (Nat.eqb (snd rc) 0) && negb (memN (par (fst rc)) (fst st))
  then (par (fst rc) :: fst st, snd st ++ [par (fst rc)]) else st.
Fixpoint urun_occ (fuel : nat) (s : ust) : option (list N) :=
  match fuel with
  | 0 => None
  | S f =>
      match todo s with
      | [] => Some (marked s)
      | q :: T =>
          let st := fold_left (fire_occ q) (rcs s) (marked s, T) in
          urun_occ f {| rcs := map (dec_occ q) (rcs s); marked := fst st; todo := snd st; popped := popped s ++ [q] |}
      end
  end.
Definition uinit_k (k : nat) (A : ta) : ust :=
  let st := fold_left fire0 (rules A) ([], []) in
  {| rcs := map (fun r => (r, length (nodup N.eq_dec (firstn k (ch r))))) (rules A); marked := fst st; todo := snd st; popped := [] |}.

Definition vA : ta := {| rules := [ {| sym := 0; ch := []; par := 1 |}; {| sym := 3; ch := [1; 1; 2]%N; par := 0 |} ]; finals := [0%N] |}.
Theorem counter_variants_refuted :
  productive_count vA 10 = Some [1%N] /\ productive vA = [1%N] /\
  urun_occ 10 (uinit vA) = Some [0; 1]%N /\            (* per-occurrence decrement: f(1,1,2) fires although 2 generates nothing *)
  urun 10 (uinit_k 2 vA) = Some [0; 1]%N.              (* only two positions waited for: the same *)
Proof. vm_compute. repeat split; reflexivity. Qed.
