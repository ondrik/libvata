(* The expansion step of the recursive downward algorithm (DownIncl.expand_opt) in state-passing form, as the variants that thread a
   cache through the recursion run it (DownInclCacheDefs.v, DownInclOptDefs.v): what a call guarantees is a `triple` over an
   invariant and a preorder on the states; `expand_s_spec` is the state-passing twin of DownIncl.expand_opt_spec. *)
From Coq Require Import List NArith.
Import ListNotations.
From V Require Import Sem Incl InclDefs ComplModel DownIncl DownInclOptDefs.

Definition if_some {X} (P : X -> Prop) (o : option X) : Prop := match o with Some x => P x | None => True end.

Record StOrder (ST : Type) := {
  st_inv : ST -> Prop;
  st_le : ST -> ST -> Prop;
  st_refl : forall a, st_le a a;
  st_trans : forall a b c, st_le a b -> st_le b c -> st_le a c }.
Arguments st_inv {ST}.
Arguments st_le {ST}.
Arguments st_refl {ST}.
Arguments st_trans {ST}.
Definition any_order {ST} (Inv : ST -> Prop) : StOrder ST :=
  {| st_inv := Inv; st_le := fun _ _ => True; st_refl := fun _ => I; st_trans := fun _ _ _ _ _ => I |}.

(* What a call that threads a state through and may run out of fuel ([None]) guarantees when started in a state C with the invariant:
   the invariant again, a state above C, and [T] of the new state if the answer is true, [F] if false. *)
Definition triple {ST} (O : StOrder ST) (C : ST) (call : option (bool * ST)) (T : ST -> Prop) (F : Prop) : Prop :=
  st_inv O C -> match call with Some (b, C') => st_inv O C' /\ st_le O C C' /\ if b then T C' else F | None => True end.

Lemma triple_impl {ST} {O : StOrder ST} {C call} {T T' : ST -> Prop} {F F' : Prop} :
  (forall C', T C' -> T' C') -> (F -> F') -> triple O C call T F -> triple O C call T' F'.
Proof. intros HT HF H HI. specialize (H HI). destruct call as [[[|] C']|]; [| |exact I]; destruct H as [H1 [H2 H3]]; repeat split; auto. Qed.

(* [forall_s], [exists_s]: what a step answering true establishes ([Qt]) may speak of the state and survives moving up. *)
Section FoldSpecs.
  Context {X ST : Type} (O : StOrder ST) (f : X -> ST -> option (bool * ST)) (Qt : X -> ST -> Prop) (Qf : X -> Prop).
  Hypothesis Qt_mono : forall x C C', st_le O C C' -> Qt x C -> Qt x C'.
  Hypothesis step : forall x C, triple O C (f x C) (Qt x) (Qf x).

  Lemma forall_s_spec l : forall C, triple O C (forall_s f l C) (fun C' => forall x, In x l -> Qt x C') (exists x, In x l /\ Qf x).
  Proof.
    induction l as [|a l IH]; intros C HI; simpl; [split; [exact HI | split; [apply st_refl | intros x []]]|].
    pose proof (step a C HI) as Ha. destruct (f a C) as [[[|] C1]|]; [| |exact I]; destruct Ha as [HI1 [L1 Q1]].
    - specialize (IH C1 HI1). destruct (forall_s f l C1) as [[b C']|]; [|exact I].
      destruct IH as [HI' [L' Hb]]. split; [exact HI' | split; [exact (st_trans O _ _ _ L1 L')|]]. destruct b.
      + intros x [<-|Hx]; [exact (Qt_mono _ _ _ L' Q1) | exact (Hb x Hx)].
      + destruct Hb as [x [Hx Hq]]. exists x. split; [right; exact Hx | exact Hq].
    - split; [exact HI1 | split; [exact L1|]]. exists a. split; [left; reflexivity | exact Q1].
  Qed.

  Lemma exists_s_spec l : forall C, triple O C (exists_s f l C) (fun C' => exists x, In x l /\ Qt x C') (forall x, In x l -> Qf x).
  Proof.
    induction l as [|a l IH]; intros C HI; simpl; [split; [exact HI | split; [apply st_refl | intros x []]]|].
    pose proof (step a C HI) as Ha. destruct (f a C) as [[[|] C1]|]; [| |exact I]; destruct Ha as [HI1 [L1 Q1]].
    - split; [exact HI1 | split; [exact L1|]]. exists a. split; [left; reflexivity | exact Q1].
    - specialize (IH C1 HI1). destruct (exists_s f l C1) as [[b C']|]; [|exact I].
      destruct IH as [HI' [L' Hb]]. split; [exact HI' | split; [exact (st_trans O _ _ _ L1 L')|]]. destruct b.
      + destruct Hb as [x [Hx Hq]]. exists x. split; [right; exact Hx | exact Hq].
      + intros x [<-|Hx]; [exact Q1 | exact (Hb x Hx)].
  Qed.
End FoldSpecs.

Definition rule_s {ST} (rec : N -> list N -> ST -> option (bool * ST)) (B : ta) (S : list N) (r : rule) (st : ST) : option (bool * ST) :=
  let k := length (ch r) in
  let T := tuplesB B S (sym r) k in
  match k with
  | 0 => Some (negb (is_nil T), st)
  | _ => forall_s (fun c st1 => exists_s (fun i st2 => rec (nth i (ch r) 0%N) (pick T c i) st2) (seq 0 k) st1) (all_choices (length T) k) st
  end.
Definition expand_s {ST} (rec : N -> list N -> ST -> option (bool * ST)) (A B : ta) (q : N) (S : list N) : ST -> option (bool * ST) :=
  forall_s (fun r st => if negb (N.eqb (par r) q) then Some (true, st) else rule_s rec B S r st) (rules A).

Section ExpandSpec.
  Context {ST : Type} (rec : N -> list N -> ST -> option (bool * ST)) (A B : ta) (O : StOrder ST) (Pt : N -> list N -> ST -> Prop).
  Hypothesis Pt_mono : forall q S C C', st_le O C C' -> Pt q S C -> Pt q S C'.
  Hypothesis rec_spec : forall q S C, triple O C (rec q S C) (Pt q S) (Refuted A B q S).

  Lemma rule_s_spec S r C : triple O C (rule_s rec B S r C) (fun C' => rule_ok (fun q' S' => Pt q' S' C') B S r) (rule_refuted A B S r).
  Proof.
    unfold rule_s, rule_ok, rule_refuted. set (k := length (ch r)). set (T := tuplesB B S (sym r) k).
    replace (match k with 0 => Some (negb (is_nil T), C) | _ => _ end)
      with (forall_s (fun c st1 => exists_s (fun i st2 => rec (nth i (ch r) 0%N) (pick T c i) st2) (seq 0 k) st1) (all_choices (length T) k) C)
      by (destruct k; [rewrite all_choices_leaf; destruct T|]; reflexivity).
    revert C. apply (forall_s_spec O).
    - intros c C1 C2 L [i [Hi Hp]]. exists i. split; [exact Hi | exact (Pt_mono _ _ _ _ L Hp)].
    - intros c. apply (exists_s_spec O). intros i. apply rec_spec.
  Qed.

  Lemma expand_s_spec q S C : triple O C (expand_s rec A B q S C)
    (fun C' => forall r, In r (rules A) -> par r = q -> rule_ok (fun q' S' => Pt q' S' C') B S r) (Refuted A B q S).
  Proof.
    apply (triple_impl (F := exists r, In r (rules A) /\ par r = q /\ rule_refuted A B S r) (fun _ H => H)).
    { intros [r [Hr [<- H]]]. exact (refute_step A B S r Hr H). }
    revert C. apply (forall_s_spec O _ (fun r C' => par r = q -> rule_ok (fun q' S' => Pt q' S' C') B S r)).
    - intros r C1 C2 L H Hq. eapply rule_ok_impl; [|exact (H Hq)]. intros q' S'. apply Pt_mono, L.
    - intros r C. destruct (N.eqb_spec (par r) q) as [Hq|NE]; simpl.
      + apply (triple_impl (fun _ H _ => H) (fun H => conj Hq H)), rule_s_spec.
      + intros HI. split; [exact HI | split; [apply st_refl|]]. intros Hq. contradiction.
  Qed.
End ExpandSpec.

Lemma verdict_fold {ST} (f : N -> ST -> option (bool * ST)) (Inv : ST -> Prop) A B C b :
  (forall q C0, triple (any_order Inv) C0 (f q C0) (fun _ => Under A B [] q (finals B)) (Refuted A B q (finals B))) -> Inv C ->
  match forall_s f (finals A) C with Some (b0, _) => Some b0 | None => None end = Some b -> (b = true <-> lincl A B).
Proof.
  intros Hf HI H. apply verdict_correct.
  pose proof (forall_s_spec (any_order Inv) f (fun q _ => Under A B [] q (finals B)) (fun q => Refuted A B q (finals B))
                (fun _ _ _ _ H0 => H0) Hf (finals A) C HI) as X.
  destruct (forall_s f (finals A) C) as [[b0 C']|]; [injection H as ->|discriminate]. exact (proj2 (proj2 X)).
Qed.
