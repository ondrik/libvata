(* C16 — proofs about the functional model of the LTS simulation engine (LtsSimDefs.v). *)
From Coq Require Import List NArith Bool Arith Lia FinFun.
Import ListNotations.
From V Require Import ListAux Gfp LtsSimDefs.

Definition relN := N -> N -> Prop.
Definition rel_of (l : list (N * N)) : relN := fun q r => In (q, r) l.
Definition sub_rel (R S : relN) : Prop := forall q r, R q r -> S q r.
Definition is_greatest (Phi : relN -> Prop) (R : relN) : Prop := Phi R /\ forall R', Phi R' -> sub_rel R' R.
Definition within (n : nat) (R : relN) : Prop := forall q r, R q r -> (q < N.of_nat n)%N /\ (r < N.of_nat n)%N.
Definition reflexive_on (n : nat) (R : relN) : Prop := forall q, (q < N.of_nat n)%N -> R q q.
Definition transitive (R : relN) : Prop := forall x y z, R x y -> R y z -> R x z.

Definition simulation (L : lts) (R : relN) : Prop :=
  forall q r, R q r -> forall a q', In (q, a, q') L -> exists r', In (r, a, r') L /\ R q' r'.

Definition init_relP (n : nat) (part : list (list N)) (brel : list (N * N)) : relN :=
  fun q r => (q < N.of_nat n)%N /\ (r < N.of_nat n)%N /\
             exists i j, block_of part q = Some i /\ block_of part r = Some j /\ In (i, j) brel.

Lemma is_greatest_ext (Phi Psi : relN -> Prop) S : (forall R, Phi R <-> Psi R) -> is_greatest Phi S -> is_greatest Psi S.
Proof. intros E [H G]. split; [apply E, H | intros R HR; apply G, E, HR]. Qed.
Lemma greatest_unique (Phi : relN -> Prop) S S' : is_greatest Phi S -> is_greatest Phi S' -> forall q r, S q r <-> S' q r.
Proof. intros [H1 G1] [H2 G2] q r. split; [apply (G2 S H1) | apply (G1 S' H2)]. Qed.
Lemma greatest_transitive (I : relN) (Step : relN -> Prop) S :
  transitive I -> (forall R, Step R -> Step (fun x z => exists y, R x y /\ R y z)) ->
  is_greatest (fun R => sub_rel R I /\ Step R) S -> transitive S.
Proof.
  intros HI HS [[Hin Hst] Hg] x y z Hxy Hyz. apply (Hg (fun x z => exists y, S x y /\ S y z)); [split | eauto].
  - intros a c [b [Hab Hbc]]. exact (HI a b c (Hin a b Hab) (Hin b c Hbc)).
  - exact (HS S Hst).
Qed.
Lemma greatest_reflexive n (I : relN) (Step : relN -> Prop) S :
  reflexive_on n I -> Step (fun x y => x = y /\ (x < N.of_nat n)%N) ->
  is_greatest (fun R => sub_rel R I /\ Step R) S -> reflexive_on n S.
Proof.
  intros HI HS [_ Hg] q Hq. apply (Hg (fun x y => x = y /\ (x < N.of_nat n)%N)); [split | auto].
  - intros x y [<- Hx]. exact (HI x Hx).
  - exact HS.
Qed.
Lemma within_greatest_transitive n (Step : relN -> Prop) S :
  (forall R, Step R -> Step (fun x z => exists y, R x y /\ R y z)) ->
  is_greatest (fun R => within n R /\ Step R) S -> transitive S.
Proof.
  apply (greatest_transitive (fun q r => (q < N.of_nat n)%N /\ (r < N.of_nat n)%N)). intros x y z [Hx _] [_ Hz]. auto.
Qed.
Lemma within_greatest_reflexive n (Step : relN -> Prop) S :
  Step (fun x y => x = y /\ (x < N.of_nat n)%N) -> is_greatest (fun R => within n R /\ Step R) S -> reflexive_on n S.
Proof. apply (greatest_reflexive n (fun q r => (q < N.of_nat n)%N /\ (r < N.of_nat n)%N)). intros q Hq. auto. Qed.

Theorem refine_step_greatest (keep : list (N * N) -> N * N -> bool) (step : relN -> relN) :
  (forall R q r, keep R (q, r) = true <-> step (rel_of R) q r) -> (forall R R', sub_rel R R' -> sub_rel (step R) (step R')) ->
  forall R0, is_greatest (fun R => sub_rel R (rel_of R0) /\ sub_rel R (step R)) (rel_of (refine (N * N) keep (S (length R0)) R0)).
Proof.
  intros Hk Hm R0. split; [split|].
  - intros q r. apply (refine_sub _ keep (S (length R0)) R0).
  - intros q r H. apply Hk, (refine_fixed _ keep (S (length R0)) R0 (Nat.lt_succ_diag_r _)), H.
  - intros R' [Hin Hs] q r. refine (refine_above _ keep (fun x => R' (fst x) (snd x)) _ _ R0 _ (q, r)).
    + intros R [x y] HR Hx. apply Hk, (Hm R'); [|apply Hs, Hx]. intros a b. apply (HR (a, b)).
    + intros [x y]. apply Hin.
Qed.

Lemma pairN_eqb_eq x y : pairN_eqb x y = true <-> x = y.
Proof. destruct x, y. unfold pairN_eqb. simpl. rewrite andb_true_iff, !N.eqb_eq, pair_equal_spec. reflexivity. Qed.
Lemma memP_In x l : memP x l = true <-> In x l.
Proof. exact (existsb_eqb pairN_eqb pairN_eqb_eq x l). Qed.
Lemma memP_false x l : memP x l = false <-> ~ In x l.
Proof. rewrite <- memP_In. symmetry. apply not_true_iff_false. Qed.
Lemma inN_In q l : existsb (N.eqb q) l = true <-> In q l.
Proof. exact (existsb_eqb N.eqb N.eqb_eq q l). Qed.
Lemma seqN_In q n : In q (seqN n) <-> (q < N.of_nat n)%N.
Proof. unfold seqN. rewrite in_map_iff. split.
  - intros [k [<- Hk]]. apply in_seq in Hk. lia.
  - intros H. exists (N.to_nat q). split; [apply N2Nat.id|]. apply in_seq. lia. Qed.
Lemma seqN_NoDup n : NoDup (seqN n).
Proof. apply Injective_map_NoDup; [intros x y; apply Nat2N.inj | apply seq_NoDup]. Qed.
Lemma all_pairs_In q r n : In (q, r) (all_pairs n) <-> (q < N.of_nat n)%N /\ (r < N.of_nat n)%N.
Proof. unfold all_pairs. rewrite in_flat_map, <- !seqN_In. split.
  - intros [x [Hx H]]. apply in_map_iff in H as [y [E Hy]]. inversion E; subst. auto.
  - intros [Hq Hr]. exists q. split; auto. apply in_map_iff. exists r. auto. Qed.

Lemma all_pairs_NoDup n : NoDup (all_pairs n).
Proof.
  unfold all_pairs. generalize (seqN_NoDup n). generalize (seqN n) at 1 3. intros l1 Hl1.
  induction Hl1 as [|q l1 Hq _ IH]; simpl; [constructor|]. apply NoDup_app. split; [|split; [exact IH|]].
  - apply Injective_map_NoDup; [intros x y E; inversion E; auto | apply seqN_NoDup].
  - intros x Ha Hb. apply in_map_iff in Ha as [y [<- _]]. apply in_flat_map in Hb as [q2 [Hq2 Hb]].
    apply in_map_iff in Hb as [y2 [E _]]. inversion E; subst. contradiction.
Qed.

Lemma init_rel_In n part brel q r : In (q, r) (init_rel n part brel) <-> init_relP n part brel q r.
Proof.
  unfold init_rel, init_relP. rewrite filter_In, all_pairs_In. unfold init_pair. simpl. split.
  - intros [[Hq Hr] H]. split; auto. split; auto.
    destruct (block_of part q) as [i|]; [|discriminate]. destruct (block_of part r) as [j|]; [|discriminate].
    exists i, j. repeat split; auto. apply memP_In; auto.
  - intros [Hq [Hr [i [j [-> [-> H]]]]]]. split; auto. apply memP_In; auto.
Qed.

Lemma edges_from L q (p : N * N * N -> bool) :
  forallb (fun e => if N.eqb (esrc e) q then p e else true) L = true <-> forall a q', In (q, a, q') L -> p (q, a, q') = true.
Proof. rewrite forallb_forall. split.
  - intros H a q' He. specialize (H _ He). unfold esrc in H. simpl in H. rewrite N.eqb_refl in H. exact H.
  - intros H [[s a] q'] He. unfold esrc. simpl. destruct (N.eqb_spec s q) as [->|]; auto. Qed.
Lemma succ_in L R a q' r :
  existsb (fun e => N.eqb (esrc e) r && N.eqb (elab e) a && memP (q', edst e) R) L = true <->
  exists r', In (r, a, r') L /\ In (q', r') R.
Proof. rewrite existsb_exists. split.
  - intros [[[s b] d] [He H]]. unfold esrc, elab, edst in H. simpl in H.
    rewrite !andb_true_iff, !N.eqb_eq, memP_In in H. destruct H as [[-> ->] H]. eauto.
  - intros [r' [He H]]. exists (r, a, r'). split; auto. unfold esrc, elab, edst. simpl.
    rewrite !N.eqb_refl. apply memP_In, H. Qed.

Lemma lts_keep_spec L R q r : lts_keep L R (q, r) = true <->
  forall a q', In (q, a, q') L -> exists r', In (r, a, r') L /\ In (q', r') R.
Proof.
  unfold lts_keep. simpl. rewrite edges_from.
  split; intros H a q' He; apply (succ_in L R a q' r), (H a q' He).
Qed.

Theorem lts_sim_from_greatest L R0 :
  is_greatest (fun R => sub_rel R (rel_of R0) /\ simulation L R) (rel_of (lts_sim_from L R0)).
Proof.
  apply (refine_step_greatest (lts_keep L)
           (fun R q r => forall a q', In (q, a, q') L -> exists r', In (r, a, r') L /\ R q' r') (lts_keep_spec L)).
  intros R R' Hi q r H a q' He. destruct (H a q' He) as [r' [He' Hr']]. exists r'. split; [exact He' | apply Hi, Hr'].
Qed.

Lemma greatest_sim_ext (Step : relN -> Prop) (I J : relN) S : (forall q r, I q r <-> J q r) ->
  is_greatest (fun R => sub_rel R I /\ Step R) S -> is_greatest (fun R => sub_rel R J /\ Step R) S.
Proof.
  intros E. apply is_greatest_ext. intros R.
  split; intros [H Hs]; (split; [intros q r Hqr; apply E, H, Hqr | exact Hs]).
Qed.

Lemma lts_sim_from_ext L R0 R0' : (forall x y, In (x, y) R0 <-> In (x, y) R0') ->
  forall x y, In (x, y) (lts_sim_from L R0) <-> In (x, y) (lts_sim_from L R0').
Proof.
  intros Hext. apply (greatest_unique _ _ _ (greatest_sim_ext _ _ _ _ Hext (lts_sim_from_greatest L R0))).
  apply lts_sim_from_greatest.
Qed.

Theorem lts_sim_greatest L n part brel :
  is_greatest (fun R => sub_rel R (init_relP n part brel) /\ simulation L R) (rel_of (lts_sim L n part brel)).
Proof. exact (greatest_sim_ext _ _ _ _ (init_rel_In n part brel) (lts_sim_from_greatest L (init_rel n part brel))). Qed.

Lemma lts_wf_spec L n : lts_wf L n = true <->
  forall q a q', In (q, a, q') L -> (q < N.of_nat n)%N /\ (q' < N.of_nat n)%N.
Proof. unfold lts_wf. rewrite forallb_forall. setoid_rewrite andb_true_iff. setoid_rewrite N.ltb_lt.
  split; [intros H q a q' He; apply (H _ He) | intros H [[q a] q'] He; apply (H _ _ _ He)]. Qed.

Lemma block_of_from_some i part q : (exists b, In b part /\ In q b) -> exists j, block_of_from i part q = Some j.
Proof. revert i. induction part as [|b rest IH]; intros i [b' [Hb Hq]]; [destruct Hb|]. simpl.
  destruct (existsb (N.eqb q) b) eqn:E; [eauto|]. destruct Hb as [->|Hb]; [|apply IH; eauto].
  apply inN_In in Hq. congruence. Qed.

Lemma block_of_from_lt i part q j : block_of_from i part q = Some j -> (i <= j < i + N.of_nat (length part))%N.
Proof. revert i. induction part as [|b rest IH]; simpl; intros i H; [discriminate|].
  destruct (existsb (N.eqb q) b); [inversion H; lia|]. apply IH in H. lia. Qed.

Lemma count_pos q l : length (filter (N.eqb q) l) <> 0 -> In q l.
Proof. induction l as [|x l IH]; simpl; [tauto|]. destruct (N.eqb_spec q x); subst; auto. Qed.

Lemma partition_covers n part q : partition_ok n part = true -> (q < N.of_nat n)%N -> exists i, block_of part q = Some i.
Proof.
  unfold partition_ok. rewrite !andb_true_iff. intros [[H _] _] Hq. rewrite forallb_forall in H.
  specialize (H q (proj2 (seqN_In q n) Hq)). apply Nat.eqb_eq in H. unfold count_in in H.
  apply block_of_from_some, in_concat, count_pos. lia.
Qed.

Lemma brel_refl_sound part brel : brel_refl part brel = true -> forall i, (i < N.of_nat (length part))%N -> In (i, i) brel.
Proof. unfold brel_refl, block_ids. rewrite forallb_forall. intros H i Hi. apply memP_In, H, seqN_In, Hi. Qed.
Lemma brel_trans_sound brel : brel_trans brel = true -> forall i j k, In (i, j) brel -> In (j, k) brel -> In (i, k) brel.
Proof. unfold brel_trans. rewrite forallb_forall. intros H i j k H1 H2. specialize (H _ H1). rewrite forallb_forall in H.
  specialize (H _ H2). simpl in H. rewrite N.eqb_refl in H. apply memP_In; auto. Qed.

Lemma init_relP_refl n part brel :
  partition_ok n part = true -> brel_refl part brel = true -> reflexive_on n (init_relP n part brel).
Proof.
  intros Hp Hr x Hx. split; auto. split; auto. destruct (partition_covers n part x Hp Hx) as [i Hi].
  exists i, i. repeat split; auto. apply (brel_refl_sound part brel Hr).
  unfold block_of in Hi. apply block_of_from_lt in Hi. lia.
Qed.
Lemma init_relP_trans n part brel : brel_trans brel = true -> transitive (init_relP n part brel).
Proof.
  intros Ht a b c [Ha [_ [i [j [Hi [Hj Hij]]]]]] [_ [Hc [j' [k [Hj' [Hk Hjk]]]]]].
  rewrite Hj in Hj'. injection Hj' as <-. split; auto. split; auto. exists i, k. repeat split; auto.
  exact (brel_trans_sound brel Ht i j k Hij Hjk).
Qed.

Lemma diag_simulation L n : lts_wf L n = true -> simulation L (fun x y => x = y /\ (x < N.of_nat n)%N).
Proof. rewrite lts_wf_spec. intros Hwf x y [<- Hx] a q' He. exists q'. split; auto. split; auto. apply (Hwf _ _ _ He). Qed.
Lemma comp_simulation L S : simulation L S -> simulation L (fun x z => exists y, S x y /\ S y z).
Proof.
  intros Hsim a c [b [Hab Hbc]] l a' He. destruct (Hsim _ _ Hab _ _ He) as [b' [He' Hab']].
  destruct (Hsim _ _ Hbc _ _ He') as [c' [He'' Hbc']]. exists c'. split; auto. exists b'. auto.
Qed.

Theorem lts_sim_reflexive L n part brel :
  lts_wf L n = true -> partition_ok n part = true -> brel_refl part brel = true ->
  reflexive_on n (rel_of (lts_sim L n part brel)).
Proof.
  intros Hwf Hp Hr.
  exact (greatest_reflexive n _ _ _ (init_relP_refl n part brel Hp Hr) (diag_simulation L n Hwf) (lts_sim_greatest L n part brel)).
Qed.

Theorem lts_sim_transitive L n part brel :
  brel_trans brel = true -> transitive (rel_of (lts_sim L n part brel)).
Proof.
  intros Ht. exact (greatest_transitive _ _ _ (init_relP_trans n part brel Ht) (comp_simulation L) (lts_sim_greatest L n part brel)).
Qed.

Lemma default_init n q r : init_relP n [seqN n] [(0%N, 0%N)] q r <-> (q < N.of_nat n)%N /\ (r < N.of_nat n)%N.
Proof.
  unfold init_relP, block_of. simpl. split; [tauto|]. intros [Hq Hr]. split; auto. split; auto.
  rewrite !(proj2 (inN_In _ (seqN n))) by (apply seqN_In; assumption). exists 0%N, 0%N. auto.
Qed.

Theorem lts_sim_default_greatest L n :
  is_greatest (fun R => within n R /\ simulation L R) (rel_of (lts_sim_default L n)).
Proof. exact (greatest_sim_ext _ _ _ _ (default_init n) (lts_sim_greatest L n [seqN n] [(0%N, 0%N)])). Qed.

Theorem lts_sim_default_preorder L n : lts_wf L n = true ->
  reflexive_on n (rel_of (lts_sim_default L n)) /\ transitive (rel_of (lts_sim_default L n)).
Proof.
  intros Hwf. split.
  - exact (within_greatest_reflexive n _ _ (diag_simulation L n Hwf) (lts_sim_default_greatest L n)).
  - exact (within_greatest_transitive n _ _ (comp_simulation L) (lts_sim_default_greatest L n)).
Qed.

Theorem output_spec m R q r : In (q, r) (output m R) <-> In (q, r) R /\ (q < m)%N /\ (r < m)%N.
Proof. unfold output. rewrite filter_In. simpl. rewrite andb_true_iff, !N.ltb_lt. reflexivity. Qed.

Lemma below_spec m R : below m R = true <-> forall q r, In (q, r) R -> (q < m)%N /\ (r < m)%N.
Proof. unfold below. rewrite forallb_forall. setoid_rewrite andb_true_iff. setoid_rewrite N.ltb_lt.
  split; [intros H q r Hx; apply (H _ Hx) | intros H [q r] Hx; apply (H _ _ Hx)]. Qed.

Lemma subP_spec l m : subP l m = true <-> incl l m.
Proof. exact (forallb_mem_incl memP memP_In l m). Qed.
Theorem rel_same_spec l m : rel_same l m = true <-> forall q r, In (q, r) l <-> In (q, r) m.
Proof. unfold rel_same. rewrite andb_true_iff, !subP_spec. split.
  - intros [H1 H2] q r. split; auto.
  - intros H. split; intros [q r] Hx; apply H; auto. Qed.

(* M lists the greatest relation with the property. Comparing an implementation output with M decides "it is that relation";
   comparing it with [output m M] decides "it reports exactly the pairs of that relation below the requested size m" *)
Lemma rel_same_greatest (Phi : relN -> Prop) M impl : is_greatest Phi (rel_of M) ->
  (rel_same impl M = true <-> exists S, is_greatest Phi S /\ forall q r, In (q, r) impl <-> S q r).
Proof.
  intros HM. rewrite rel_same_spec. split.
  - intros H. exists (rel_of M). auto.
  - intros [S [HS H]] q r. rewrite H. apply (greatest_unique Phi S (rel_of M) HS HM).
Qed.
Lemma gate_greatest {Phi : relN -> Prop} {M} m impl : is_greatest Phi (rel_of M) ->
  (rel_same impl (output m M) = true <->
   exists S, is_greatest Phi S /\ forall q r, In (q, r) impl <-> S q r /\ (q < m)%N /\ (r < m)%N).
Proof.
  intros HM. rewrite rel_same_spec. split.
  - intros H. exists (rel_of M). split; auto. intros q r. rewrite H. apply output_spec.
  - intros [S [HS H]] q r. rewrite H, output_spec, (greatest_unique Phi S (rel_of M) HS HM q r). reflexivity.
Qed.

Theorem gate_lts_spec L n part brel m impl :
  gate_lts L n part brel m impl = true <->
  exists S, is_greatest (fun R => sub_rel R (init_relP n part brel) /\ simulation L R) S /\
            forall q r, In (q, r) impl <-> S q r /\ (q < m)%N /\ (r < m)%N.
Proof. exact (gate_greatest m impl (lts_sim_greatest L n part brel)). Qed.

Theorem gate_lts_default_spec L n m impl :
  gate_lts_default L n m impl = true <->
  exists S, is_greatest (fun R => within n R /\ simulation L R) S /\
            forall q r, In (q, r) impl <-> S q r /\ (q < m)%N /\ (r < m)%N.
Proof. exact (gate_greatest m impl (lts_sim_default_greatest L n)). Qed.

Lemma same_passes_gate L n part brel m R' :
  (forall q r, In (q, r) R' <-> In (q, r) (lts_sim L n part brel)) -> gate_lts L n part brel m (output m R') = true.
Proof. intros H. apply rel_same_spec. intros q r. rewrite !output_spec, H. reflexivity. Qed.

Example ex_lts : lts := [(0, 0, 1); (1, 0, 1); (2, 0, 0); (2, 1, 2)]%N.
Example ex_input_ok : input_ok ex_lts 3 [[0; 2]; [1]]%N [(0, 0); (1, 1); (0, 1)]%N = true.
Proof. vm_compute. reflexivity. Qed.
Example ex_result : lts_sim ex_lts 3 [[0; 2]; [1]]%N [(0, 0); (1, 1); (0, 1)]%N = [(0, 0); (0, 1); (1, 1); (2, 2)]%N.
Proof. vm_compute. reflexivity. Qed.
Example ex_default : lts_sim_default ex_lts 3 = [(0, 0); (0, 1); (0, 2); (1, 0); (1, 1); (1, 2); (2, 2)]%N.
Proof. vm_compute. reflexivity. Qed.
