(* C01 / C07, algorithm-level model — the recursive downward inclusion algorithm (DownwardInclusionFunctor,
   src/down_tree_incl_fctor.hh; identity preorder, no caches): L(q) <= L(S) is decided top-down; for a rule f(q1..qk) -> q of the smaller automaton and the tuples T of the rules
   f(..) -> s, s in S, of the bigger one, EVERY choice function c : T -> positions must have SOME position i with
   L(q_i) <= L({ t_i | c t = i }); goals already open on the call stack (the workset) count as true (coinduction).
   The code has a separate branch for leaf rules (included iff the bigger side has a leaf rule too); `all_choices_leaf`
   shows that the general branch computes the same.
   Fuel-indexed; theorem: WHATEVER the fuel, an answer is the truth (partial correctness; running out of fuel is the
   distinguished value None, excluded by the statement). *)
From Coq Require Import List NArith Bool Arith Lia.
Import ListNotations.
From V Require Import ListAux Sem Prod Incl TrimDefs TrimProofs InclDefs ComplModel.

Fixpoint forall_opt {X} (f : X -> option bool) (l : list X) : option bool :=
  match l with
  | [] => Some true
  | x :: r => match f x with Some true => forall_opt f r | Some false => Some false | None => None end
  end.
Fixpoint exists_opt {X} (f : X -> option bool) (l : list X) : option bool :=
  match l with
  | [] => Some false
  | x :: r => match f x with Some false => exists_opt f r | Some true => Some true | None => None end
  end.

(* all functions from n arguments to positions 0..k-1 *)
Fixpoint all_choices (n k : nat) : list (list nat) :=
  match n with 0 => [[]] | S n' => flat_map (fun c => map (fun j => j :: c) (seq 0 k)) (all_choices n' k) end.

Definition tuplesB (B : ta) (S : list N) (f : N) (k : nat) : list (list N) :=
  map ch (filter (fun r => N.eqb (sym r) f && memN (par r) S && Nat.eqb (length (ch r)) k) (rules B)).

Definition wk := list (N * list N).
Definition in_workset (W : wk) (q : N) (S : list N) : bool := existsb (fun p => N.eqb (fst p) q && subN (snd p) S) W.

Fixpoint down (A B : ta) (fuel : nat) (q : N) (S : list N) (W : wk) : option bool :=
  match fuel with
  | 0 => None
  | Datatypes.S f =>
      if in_workset W q S then Some true else
      forall_opt (fun r =>
        if negb (N.eqb (par r) q) then Some true else
        let k := length (ch r) in
        let T := tuplesB B S (sym r) k in
        match k with
        | 0 => Some (negb (is_nil T))
        | _ => forall_opt (fun c => exists_opt (fun i => down A B f (nth i (ch r) 0%N) (pick T c i) ((q, S) :: W)) (seq 0 k))
                          (all_choices (length T) k)
        end) (rules A)
  end.

Definition down_incl (A B : ta) (fuel : nat) : option bool :=
  forall_opt (fun q => down A B fuel q (finals B) []) (finals A).

Definition covers (B : ta) (S : list N) (t : tree) := exists s, In s S /\ reach B t s.
Definition Incl (A B : ta) (q : N) (S : list N) := forall t, reach A t q -> covers B S t.

Lemma forall_opt_spec {X} (f : X -> option bool) (Qt Qf : X -> Prop) l :
  (forall x b, In x l -> f x = Some b -> if b then Qt x else Qf x) ->
  forall b, forall_opt f l = Some b -> if b then forall x, In x l -> Qt x else exists x, In x l /\ Qf x.
Proof.
  induction l as [|a l IH]; intros Hf b H; simpl in H; [injection H as <-; intros x []|].
  specialize (IH (fun x b0 Hx => Hf x b0 (or_intror Hx))). pose proof (fun b0 => Hf a b0 (or_introl eq_refl)) as Ha.
  destruct (f a) as [[|]|]; [|injection H as <-; exists a; split; [left; reflexivity | exact (Ha false eq_refl)]|discriminate].
  apply IH in H. destruct b.
  - intros x [<-|Hx]; [exact (Ha true eq_refl) | exact (H x Hx)].
  - destruct H as [x [Hx H]]. exists x. split; [right; exact Hx | exact H].
Qed.
Lemma exists_opt_spec {X} (f : X -> option bool) (Qt Qf : X -> Prop) l :
  (forall x b, In x l -> f x = Some b -> if b then Qt x else Qf x) ->
  forall b, exists_opt f l = Some b -> if b then exists x, In x l /\ Qt x else forall x, In x l -> Qf x.
Proof.
  induction l as [|a l IH]; intros Hf b H; simpl in H; [injection H as <-; intros x []|].
  specialize (IH (fun x b0 Hx => Hf x b0 (or_intror Hx))). pose proof (fun b0 => Hf a b0 (or_introl eq_refl)) as Ha.
  destruct (f a) as [[|]|]; [injection H as <-; exists a; split; [left; reflexivity | exact (Ha true eq_refl)]| |discriminate].
  apply IH in H. destruct b.
  - destruct H as [x [Hx H]]. exists x. split; [right; exact Hx | exact H].
  - intros x [<-|Hx]; [exact (Ha false eq_refl) | exact (H x Hx)].
Qed.

Lemma all_choices_in {X} (T : list X) k c : In c (all_choices (length T) k) <-> Forall2 (fun _ j => j < k) T c.
Proof.
  revert c. induction T as [|w T IH]; intros c; simpl.
  - split; [intros [<-|[]]; constructor | intros H; inversion H; left; reflexivity].
  - rewrite in_flat_map. split.
    + intros [c' [Hc' H]]. apply in_map_iff in H as [j [<- Hj]]. apply in_seq in Hj. constructor; [lia | apply IH, Hc'].
    + intros H. inversion H as [|w' j T' c' Hj F]; subst. exists c'. split; [apply IH, F | apply (in_map (fun j => j :: c')), in_seq; lia].
Qed.

(* with k = 0 there is one choice function if T is empty and none otherwise: on a leaf rule the general branch of `down`
   answers what its leaf branch does *)
Lemma all_choices_leaf {X} (T : list X) : all_choices (length T) 0 = if is_nil T then [[]] else [].
Proof. destruct T as [|w T]; simpl; [reflexivity|]. induction (all_choices (length T) 0); simpl; auto. Qed.

Lemma tuplesB_in B S f k w : In w (tuplesB B S f k) <-> exists r, In r (rules B) /\ sym r = f /\ In (par r) S /\ ch r = w /\ length w = k.
Proof.
  unfold tuplesB. rewrite in_map_iff. split; intros [r H]; exists r.
  - destruct H as [E H]. apply filter_In in H as [Hr H]. apply andb_true_iff in H as [H H3]. apply andb_true_iff in H as [H1 H2].
    apply N.eqb_eq in H1. apply memN_In in H2. apply Nat.eqb_eq in H3. subst. auto.
  - destruct H as [Hr [Hs [Hp [E L]]]]. split; [exact E|]. apply filter_In. split; [exact Hr|].
    rewrite Hs, N.eqb_refl, (proj2 (memN_In _ _) Hp), E, L, Nat.eqb_refl. reflexivity.
Qed.

Lemma in_workset_spec W q S : in_workset W q S = true <-> exists S', In (q, S') W /\ incl S' S.
Proof.
  unfold in_workset. split.
  - intros H. apply existsb_exists in H as [[q' S'] [H E]]. simpl in E. apply andb_true_iff in E as [E I].
    apply N.eqb_eq in E as ->. apply subN_spec in I. exists S'. auto.
  - intros [S' [H I]]. apply existsb_exists. exists (q, S'). simpl. rewrite N.eqb_refl, (proj2 (subN_spec S' S) I). auto.
Qed.

Lemma pick_states B S f k c i : In c (all_choices (length (tuplesB B S f k)) k) -> incl (pick (tuplesB B S f k) c i) (states B).
Proof.
  intros Hc x Hx. apply all_choices_in in Hc. destruct (pick_elim _ _ c i x Hc Hx) as [w [Hw [Hi ->]]].
  apply tuplesB_in in Hw as [rb [Hrb [_ [_ [<- L]]]]]. apply (rule_states B rb Hrb), nth_In. lia.
Qed.

Fixpoint height (t : tree) : nat := match t with Node _ ts => S (fold_right Nat.max 0 (map height ts)) end.
Lemma height_child t ts f : In t ts -> height t < height (Node f ts).
Proof. simpl. induction ts as [|a ts IH]; simpl; intros H; [destruct H|]. destruct H as [<-|H]; [lia | specialize (IH H); lia]. Qed.

Definition InclN (A B : ta) (n : nat) (q : N) (S : list N) := forall t, height t <= n -> reach A t q -> covers B S t.
Definition Refuted (A B : ta) (q : N) (S : list N) := exists t, reach A t q /\ ~ covers B S t.

(* What a successful expansion of (q, S) establishes about a rule r of A into q, given a property P of the goals one level down
   (every choice function has a position whose goal has P), and what a failed one exhibits *)
Definition rule_ok (P : N -> list N -> Prop) (B : ta) (S : list N) (r : rule) :=
  let k := length (ch r) in let T := tuplesB B S (sym r) k in
  forall c, In c (all_choices (length T) k) -> exists i, In i (seq 0 k) /\ P (nth i (ch r) 0%N) (pick T c i).
Definition rule_refuted (A B : ta) (S : list N) (r : rule) :=
  let k := length (ch r) in let T := tuplesB B S (sym r) k in
  exists c, In c (all_choices (length T) k) /\ forall i, In i (seq 0 k) -> Refuted A B (nth i (ch r) 0%N) (pick T c i).

Lemma rule_ok_impl (P P' : N -> list N -> Prop) B S r : (forall q' S', P q' S' -> P' q' S') -> rule_ok P B S r -> rule_ok P' B S r.
Proof. intros HP H c Hc. destruct (H c Hc) as [i [Hi Hp]]. exists i. split; [exact Hi | exact (HP _ _ Hp)]. Qed.

Lemma covers_dec B S t : {covers B S t} + {~ covers B S t}.
Proof. destruct (Exists_dec (reach B t) S (reach_dec B t)) as [E|E]; [left | right]; rewrite Exists_exists in E; exact E. Qed.

Lemma InclN_0 A B q S : InclN A B 0 q S.
Proof. intros t Ht. destruct t; simpl in Ht; lia. Qed.
Lemma InclN_mono A B n m q S : m <= n -> InclN A B n q S -> InclN A B m q S.
Proof. intros H I t Ht. apply I. lia. Qed.
Lemma InclN_sub A B n q S S' : incl S S' -> InclN A B n q S -> InclN A B n q S'.
Proof. intros I H t Ht R. destruct (H t Ht R) as [s [Hs Rs]]. exists s. split; [exact (I s Hs) | exact Rs]. Qed.

Lemma root_cover A B q S n : (forall r, In r (rules A) -> par r = q -> rule_ok (InclN A B n) B S r) -> InclN A B (Datatypes.S n) q S.
Proof.
  intros H t Ht R. inversion R as [g ts r Hr Hs HF]; subst.
  destruct (covers_dec B S (Node (sym r) ts)) as [|NC]; [assumption | exfalso].
  specialize (H r Hr eq_refl). unfold rule_ok in H. pose proof (Forall2_length _ _ _ HF) as Hlen.
  set (k := length (ch r)) in *. set (T := tuplesB B S (sym r) k) in *.
  (* no tuple of T matches the children, else its rule would cover the tree: each fails at some position *)
  destruct (Forall2_choose (fun j w => j < k /\ ~ reach B (nth j ts dflt) (nth j w 0%N)) T) as [c Hc%Forall2_flip].
  { intros w Hw. apply tuplesB_in in Hw as [rb [Hrb [Hsb [Hpb [Ew Lw]]]]]. rewrite <- Hlen.
    apply not_Forall2_pos; [lia|]. intros F2. apply NC. exists (par rb). split; [exact Hpb|].
    rewrite <- Hsb. constructor; auto. rewrite Ew. exact F2. }
  destruct (H c) as [i [Hi Hinc]]; [exact (proj2 (all_choices_in T k c) (Forall2_impl _ _ _ _ (fun w j => @proj1 _ _) Hc))|].
  apply in_seq in Hi. destruct (Hinc (nth i ts dflt)) as [s [Hs Rs]].
  - assert (Hin : In (nth i ts dflt) ts) by (apply nth_In; lia). apply (height_child _ _ (sym r)) in Hin. lia.
  - apply (Forall2_nth _ _ _ dflt 0%N i HF). lia.
  - destruct (pick_elim _ T c i s Hc Hs) as [w [_ [[_ Hnr] ->]]]. exact (Hnr Rs).
Qed.

Lemma refute_step A B S r : In r (rules A) -> rule_refuted A B S r -> Refuted A B (par r) S.
Proof.
  unfold rule_refuted. set (k := length (ch r)). set (T := tuplesB B S (sym r) k). intros Hr [c [Hc Hi]].
  apply all_choices_in in Hc. destruct (Forall2_choose _ (seq 0 k) Hi) as [ts Hts].
  assert (Lts : length ts = k) by (rewrite (Forall2_length _ _ _ Hts); apply seq_length).
  assert (Hn : forall i, i < k -> reach A (nth i ts dflt) (nth i (ch r) 0%N) /\ ~ covers B (pick T c i) (nth i ts dflt)).
  { intros i Hlt. pose proof (Forall2_nth _ _ _ dflt 0 i Hts) as H. rewrite (seq_nth 0 0 Hlt) in H. apply H. lia. }
  exists (Node (sym r) ts). split.
  - constructor; auto. apply (Forall2_of_nth _ ts (ch r) dflt 0%N Lts). exact (fun i Hlt => proj1 (Hn i Hlt)).
  - intros [s [Hs R]]. inversion R as [g ts' rb Hrb Hsb HF]; subst.
    assert (Hin : In (ch rb) T) by (apply tuplesB_in; exists rb; rewrite <- (Forall2_length _ _ _ HF); auto).
    destruct (pick_intro _ T c Hc (ch rb) Hin) as [i [Hlt Hp]].
    apply (proj2 (Hn i Hlt)). exists (nth i (ch rb) 0%N). split; [exact Hp|]. apply (Forall2_nth _ _ _ dflt 0%N i HF). lia.
Qed.

(* [Under W q S]: L(q) <= L(S) up to every height up to which the goals of W hold. This is what an answer "true" obtained
   with the open goals W (workset, antecedent) means; every variant of the algorithm is proved sound against it. *)
Definition holds (P : N -> list N -> Prop) (L : wk) := Forall (fun g => P (fst g) (snd g)) L.
Definition Under (A B : ta) (W : wk) (q : N) (S : list N) := forall n, holds (InclN A B n) W -> InclN A B n q S.

(* every goal of W' is a goal of W or implied by (q, S). For the workset W' = (q, S) :: W; for the implication cache
   (DownInclOptProofs.finish_spec) W' is an antecedent and W what is left of it when the goals equivalent to (q, S) leave *)
Definition adds_implied (W W' : wk) (q : N) (S : list N) := forall g, In g W' -> In g W \/ fst g = q /\ incl S (snd g).

Section Under.
  Variables A B : ta.

  Lemma Under_hit W q S : in_workset W q S = true -> Under A B W q S.
  Proof.
    intros E n HW. apply in_workset_spec in E as [S' [Hin Hsub]].
    exact (InclN_sub A B n q S' S Hsub (proj1 (Forall_forall _ _) HW (q, S') Hin)).
  Qed.
  Lemma Under_weaken W W' q S : incl W W' -> Under A B W q S -> Under A B W' q S.
  Proof. intros I H n HW. apply H. exact (incl_Forall I HW). Qed.
  Lemma holds_weaken W W' L : incl W W' -> holds (Under A B W) L -> holds (Under A B W') L.
  Proof. intros I. apply Forall_impl. intros g. apply Under_weaken, I. Qed.
  Lemma Under_trans W W' q S : holds (Under A B W) W' -> Under A B W' q S -> Under A B W q S.
  Proof. intros HW' H n HW. apply H. eapply Forall_impl; [|exact HW']. intros g Hg. exact (Hg n HW). Qed.
  Lemma Incl_Under W q S : Incl A B q S -> Under A B W q S.
  Proof. intros H n _ t _. apply H. Qed.
  Lemma Under_nil q S : Under A B [] q S -> Incl A B q S.
  Proof. intros H t R. apply (H (height t)); [constructor | apply le_n | exact R]. Qed.

  Lemma holds_added n W W' q S : adds_implied W W' q S -> holds (InclN A B n) W -> InclN A B n q S -> holds (InclN A B n) W'.
  Proof.
    intros HW' HW Hq. apply Forall_forall. intros g Hg.
    destruct (HW' g Hg) as [Hin|[<- Hs]]; [exact (proj1 (Forall_forall _ _) HW g Hin) | exact (InclN_sub A B n _ S _ Hs Hq)].
  Qed.

  (* coinduction: the expansion of (q, S) may assume the goal itself *)
  Lemma Under_expand W W' q S : adds_implied W W' q S ->
    (forall r, In r (rules A) -> par r = q -> rule_ok (Under A B W') B S r) -> Under A B W q S.
  Proof.
    intros HW' H n. induction n as [|n IHn]; intros HW; [apply InclN_0|].
    assert (HWn : holds (InclN A B n) W) by (eapply Forall_impl; [|exact HW]; intros g; apply InclN_mono; lia).
    pose proof (holds_added n W W' q S HW' HWn (IHn HWn)) as HW'n.
    apply root_cover. intros r Hr Hq. eapply rule_ok_impl; [|exact (H r Hr Hq)]. intros q' S' HU. exact (HU n HW'n).
  Qed.
  Lemma Under_discharge W W' q S p P : adds_implied W W' q S -> Under A B W q S -> Under A B W' p P -> Under A B W p P.
  Proof. intros HW' Hq H n HW. exact (H n (holds_added n W W' q S HW' HW (Hq n HW))). Qed.
  Lemma Under_expand_cons W q S : (forall r, In r (rules A) -> par r = q -> rule_ok (Under A B ((q, S) :: W)) B S r) -> Under A B W q S.
  Proof. apply Under_expand. intros g [<-|Hg]; [right; split; [reflexivity | apply incl_refl] | left; exact Hg]. Qed.
End Under.

Definition Correct (A B : ta) (W : wk) (q : N) (S : list N) (b : bool) := if b then Under A B W q S else Refuted A B q S.

Lemma Correct_iff A B q S b : Correct A B [] q S b -> (b = true <-> Incl A B q S).
Proof.
  destruct b; simpl; intros H; split; auto; try discriminate.
  - intros _. exact (Under_nil A B q S H).
  - intros I. destruct H as [t [R NC]]. exfalso. exact (NC (I t R)).
Qed.

Lemma verdict_correct A B (b : bool) :
  (if b then forall q, In q (finals A) -> Under A B [] q (finals B) else exists q, In q (finals A) /\ Refuted A B q (finals B)) ->
  (b = true <-> lincl A B).
Proof.
  destruct b; intros H; split; auto; try discriminate.
  - intros _ t [q [Hq R]]. exact (Under_nil A B q _ (H q Hq) t R).
  - intros L. destruct H as [q [Hq [t [R NC]]]]. exfalso. apply NC, L. exists q; auto.
Qed.
Lemma verdict_opt A B (f : N -> option bool) b :
  (forall q b0, f q = Some b0 -> Correct A B [] q (finals B) b0) -> forall_opt f (finals A) = Some b -> (b = true <-> lincl A B).
Proof.
  intros Hf H. apply verdict_correct. revert b H. apply forall_opt_spec. intros q b _. apply Hf.
Qed.
Lemma verdict_refines A B b : (b = true <-> lincl A B) -> b = incl_dec A B.
Proof. intros H. apply eq_true_iff_eq. rewrite H. symmetry. apply incl_dec_spec. Qed.

Definition rule_opt (rec : N -> list N -> option bool) (B : ta) (S : list N) (r : rule) : option bool :=
  let k := length (ch r) in
  let T := tuplesB B S (sym r) k in
  match k with
  | 0 => Some (negb (is_nil T))
  | _ => forall_opt (fun c => exists_opt (fun i => rec (nth i (ch r) 0%N) (pick T c i)) (seq 0 k)) (all_choices (length T) k)
  end.
Definition expand_opt (rec : N -> list N -> option bool) (A B : ta) (q : N) (S : list N) : option bool :=
  forall_opt (fun r => if negb (N.eqb (par r) q) then Some true else rule_opt rec B S r) (rules A).

Lemma rule_opt_spec (rec : N -> list N -> option bool) (Pt : N -> list N -> Prop) A B S r b :
  (forall q' S' b', incl S' (states B) -> rec q' S' = Some b' -> if b' then Pt q' S' else Refuted A B q' S') ->
  rule_opt rec B S r = Some b -> if b then rule_ok Pt B S r else rule_refuted A B S r.
Proof.
  unfold rule_opt, rule_ok, rule_refuted. intros Hrec H. set (k := length (ch r)) in *. set (T := tuplesB B S (sym r) k) in *.
  assert (H' : forall_opt (fun c => exists_opt (fun i => rec (nth i (ch r) 0%N) (pick T c i)) (seq 0 k)) (all_choices (length T) k) = Some b).
  { destruct k; [rewrite all_choices_leaf; destruct T|]; exact H. }
  clear H. revert b H'. apply forall_opt_spec. intros c b Hc. apply exists_opt_spec. intros i b' _. apply Hrec, pick_states, Hc.
Qed.

Lemma expand_opt_spec (rec : N -> list N -> option bool) A B q S W b :
  (forall q' S' b', incl S' (states B) -> rec q' S' = Some b' -> Correct A B ((q, S) :: W) q' S' b') ->
  expand_opt rec A B q S = Some b -> Correct A B W q S b.
Proof.
  intros Hrec H.
  apply (forall_opt_spec _ (fun r => par r = q -> rule_ok (Under A B ((q, S) :: W)) B S r) (fun r => par r = q /\ rule_refuted A B S r)) in H.
  - destruct b; [exact (Under_expand_cons A B W q S H)|]. destruct H as [r [Hr [<- H]]]. exact (refute_step A B S r Hr H).
  - intros r b0 _. destruct (N.eqb_spec (par r) q) as [Hq|NE]; simpl; intros Hb.
    + apply (rule_opt_spec rec (Under A B ((q, S) :: W)) A B S r b0 Hrec) in Hb. destruct b0; auto.
    + injection Hb as <-. intros Hq. contradiction.
Qed.

Lemma down_eq A B f q S W : down A B (Datatypes.S f) q S W =
  if in_workset W q S then Some true else expand_opt (fun q' S' => down A B f q' S' ((q, S) :: W)) A B q S.
Proof. reflexivity. Qed.

Lemma down_sound A B : forall fuel q S W b, down A B fuel q S W = Some b -> Correct A B W q S b.
Proof.
  induction fuel as [|f IH]; intros q S W b Hd; [discriminate|]. rewrite down_eq in Hd.
  destruct (in_workset W q S) eqn:EW; [injection Hd as <-; exact (Under_hit A B W q S EW)|].
  exact (expand_opt_spec _ A B q S W b (fun q' S' b' _ => IH q' S' _ b') Hd).
Qed.

Theorem down_partial_correct A B fuel q S b : down A B fuel q S [] = Some b -> (b = true <-> Incl A B q S).
Proof. intros H. exact (Correct_iff A B q S b (down_sound A B fuel q S [] b H)). Qed.

Theorem down_incl_partial_correct A B fuel b : down_incl A B fuel = Some b -> (b = true <-> lincl A B).
Proof. apply verdict_opt. intros q b0. apply down_sound. Qed.

Corollary down_incl_refines A B fuel b : down_incl A B fuel = Some b -> b = incl_dec A B.
Proof. intros H. exact (verdict_refines A B b (down_incl_partial_correct A B fuel b H)). Qed.

Example down_examples :
  let A := {| rules := [ {| sym := 0; ch := []; par := 0 |}; {| sym := 2; ch := [0%N]; par := 0 |} ]; finals := [0%N] |} in
  let B := {| rules := [ {| sym := 0; ch := []; par := 0 |}; {| sym := 2; ch := [0%N]; par := 1 |}; {| sym := 2; ch := [1%N]; par := 0 |};
                         {| sym := 0; ch := []; par := 1 |} ]; finals := [0%N; 1%N] |} in
  down_incl A B 20 = Some true /\ down_incl B {| rules := rules A; finals := [] |} 20 = Some false.
Proof. vm_compute. split; reflexivity. Qed.
