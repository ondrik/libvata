(* Shared language lemmas: renaming (image), disjoint union, state languages,
   a two-target inclusion decider (for intersections), and word automata through their encoding
   as unary tree automata. *)
From Coq Require Import List NArith Bool Lia.
Import ListNotations.
From V Require Import ListAux Sem Prod Incl TrimProofs.

Definition with_finals (F : list N) (A : ta) : ta := {| rules := rules A; finals := F |}.
Lemma with_finals_reach F A t q : reach (with_finals F A) t q <-> reach A t q.
Proof. split; apply reach_mono; simpl; apply incl_refl. Qed.
Lemma with_finals_accepts F A t : accepts (with_finals F A) t <-> exists q, In q F /\ reach A t q.
Proof. unfold accepts; simpl. split; intros [q [H1 H2]]; exists q; split; auto; apply (with_finals_reach F A); auto. Qed.

Definition map_rule (h : N -> N) (r : rule) : rule := {| sym := sym r; ch := map h (ch r); par := h (par r) |}.
Definition image (h : N -> N) (A : ta) : ta := {| rules := map (map_rule h) (rules A); finals := map h (finals A) |}.

Lemma reach_image h A t q : reach A t q -> reach (image h A) t (h q).
Proof.
  revert t q. apply reach_ind'. intros f ts r Hr Hs _ IH.
  change (h (par r)) with (par (map_rule h r)). constructor; simpl; auto.
  - apply in_map; auto.
  - apply Forall2_map_r; auto.
Qed.

Theorem image_lang_sup h A t : accepts A t -> accepts (image h A) t.
Proof. intros [q [Hq R]]. exists (h q). split; [apply in_map; auto | apply reach_image; auto]. Qed.

Definition inj_on (h : N -> N) (l : list N) := forall x y, In x l -> In y l -> h x = h y -> x = y.
Lemma inj_on_forallb h l : forallb (fun x => forallb (fun y => implb (N.eqb (h x) (h y)) (N.eqb x y)) l) l = true <-> inj_on h l.
Proof.
  unfold inj_on. rewrite forallb_forall. split.
  - intros H x y Hx Hy. rewrite <- !N.eqb_eq. apply implb_true_iff. revert y Hy. apply forallb_forall, H, Hx.
  - intros H x Hx. apply forallb_forall. intros y Hy. rewrite implb_true_iff, !N.eqb_eq. apply H; auto.
Qed.

Lemma reach_image_inj h A : inj_on h (states A) ->
  forall t q', reach (image h A) t q' -> exists q, q' = h q /\ reach A t q.
Proof.
  intros Hinj. apply (reach_ind' (image h A) (fun t q' => exists q, q' = h q /\ reach A t q)).
  intros f ts r' Hr' Hs _ IH. simpl in Hr'. apply in_map_iff in Hr' as [r [<- Hr]]. simpl in *.
  exists (par r). split; auto. constructor; auto.
  apply Forall2_map_r_inv in IH. eapply Forall2_impl_In; [|exact IH]. intros t c _ Hc (q & E & R).
  rewrite (Hinj c q); auto; [apply (rule_states A r Hr), Hc | eapply reach_state, R].
Qed.

Theorem image_lang_inj h A : inj_on h (states A) -> forall t, accepts (image h A) t <-> accepts A t.
Proof.
  intros Hinj t. split; [|apply image_lang_sup].
  intros [q' [Hq' R]]. simpl in Hq'. apply in_map_iff in Hq' as [q0 [<- Hq0]].
  destruct (reach_image_inj h A Hinj t _ R) as [q [E Rq]].
  rewrite (Hinj q0 q) in Hq0; auto; [exists q; auto | apply finals_states, Hq0 | eapply reach_state, Rq].
Qed.

Lemma image_states h A x : In x (states (image h A)) <-> In x (map h (states A)).
Proof.
  rewrite in_map_eq, states_in. simpl. split.
  - intros [(r' & Hr' & Hx)|Hx].
    + apply in_map_iff in Hr' as (r & <- & Hr). simpl in Hx. destruct Hx as [->|Hx].
      * exists (par r). split; auto. apply rule_states, Hr.
      * apply in_map_iff in Hx as (c & <- & Hc). exists c. split; auto. apply (rule_states A r Hr), Hc.
    + apply in_map_iff in Hx as (y & <- & Hy). exists y. split; auto. apply finals_states, Hy.
  - intros (y & Hy & ->). apply states_in in Hy as [(r & Hr & Hy)|Hy]; [left|right; apply in_map, Hy].
    exists (map_rule h r). split; [apply in_map, Hr|]. simpl. destruct Hy as [->|Hy]; auto using in_map.
Qed.

Definition ta_app (A B : ta) : ta := {| rules := rules A ++ rules B; finals := finals A ++ finals B |}.
Definition disjoint (l m : list N) := forall x, In x l -> In x m -> False.

Lemma app_reach_l A B t q : reach A t q -> reach (ta_app A B) t q.
Proof. apply reach_mono. simpl. apply incl_appl, incl_refl. Qed.
Lemma app_reach_r A B t q : reach B t q -> reach (ta_app A B) t q.
Proof. apply reach_mono. simpl. apply incl_appr, incl_refl. Qed.

Lemma app_reach A B : disjoint (states A) (states B) ->
  forall t q, reach (ta_app A B) t q -> reach A t q \/ reach B t q.
Proof.
  intros D. apply (reach_ind' (ta_app A B) (fun t q => reach A t q \/ reach B t q)).
  intros f ts r Hr Hs _ IH. simpl in Hr. apply in_app_or in Hr as [Hr|Hr]; [left|right]; constructor; auto;
    (eapply Forall2_impl_In; [|exact IH]); intros t c _ Hc [H|H]; auto; exfalso; apply (D c).
  - apply (rule_states A r Hr), Hc.
  - eapply reach_state, H.
  - eapply reach_state, H.
  - apply (rule_states B r Hr), Hc.
Qed.

Lemma app_lang_l A B : disjoint (states A) (states B) ->
  forall t, accepts (with_finals (finals A) (ta_app A B)) t <-> accepts A t.
Proof.
  intros D t. rewrite with_finals_accepts. split; intros (q & Hq & R); exists q; split; auto using app_reach_l.
  apply app_reach in R as [R|R]; auto. destruct (D q); [apply finals_states, Hq | eapply reach_state, R].
Qed.
Lemma app_lang_r A B : disjoint (states A) (states B) ->
  forall t, accepts (with_finals (finals B) (ta_app A B)) t <-> accepts B t.
Proof.
  intros D t. rewrite with_finals_accepts. split; intros (q & Hq & R); exists q; split; auto using app_reach_r.
  apply app_reach in R as [R|R]; auto. destruct (D q); [eapply reach_state, R | apply finals_states, Hq].
Qed.

Theorem app_lang A B : disjoint (states A) (states B) ->
  forall t, accepts (ta_app A B) t <-> accepts A t \/ accepts B t.
Proof.
  intros D t. rewrite <- (app_lang_l A B D), <- (app_lang_r A B D), !with_finals_accepts. unfold accepts. simpl. split.
  - intros (q & Hq & R). apply in_app_or in Hq as [Hq|Hq]; eauto.
  - intros [(q & Hq & R)|(q & Hq & R)]; exists q; rewrite in_app_iff; auto.
Qed.

(* Union as the code builds it: both operands re-indexed into one fresh automaton *)
Definition union_with (hA hB : N -> N) (A B : ta) : ta := ta_app (image hA A) (image hB B).
Definition valid_union (hA hB : N -> N) (A B : ta) :=
  inj_on hA (states A) /\ inj_on hB (states B) /\ disjoint (map hA (states A)) (map hB (states B)).

Lemma image_disjoint hA hB A B :
  disjoint (map hA (states A)) (map hB (states B)) -> disjoint (states (image hA A)) (states (image hB B)).
Proof.
  intros D x Hx Hy. apply (D x); apply image_states; assumption.
Qed.

Theorem union_lang hA hB A B : valid_union hA hB A B ->
  forall t, accepts (union_with hA hB A B) t <-> accepts A t \/ accepts B t.
Proof.
  intros (IA & IB & D) t. unfold union_with. rewrite (app_lang _ _ (image_disjoint _ _ _ _ D)).
  rewrite (image_lang_inj hA A IA), (image_lang_inj hB B IB). tauto.
Qed.

Definition d0 (x : N) : N := 2 * x.
Definition d1 (x : N) : N := 2 * x + 1.
Lemma d0_inj l : inj_on d0 l. Proof. intros x y _ _. unfold d0. lia. Qed.
Lemma d1_inj l : inj_on d1 l. Proof. intros x y _ _. unfold d1. lia. Qed.
Lemma d01_disjoint l m : disjoint (map d0 l) (map d1 m).
Proof. intros x Hx Hy. apply in_map_iff in Hx as [a [<- _]]. apply in_map_iff in Hy as [b [E _]]. unfold d0, d1 in E. lia. Qed.

Definition tagged (B R : ta) : ta := union_with d0 d1 B R.

Lemma d01_valid l m : inj_on d0 l /\ inj_on d1 m /\ disjoint (map d0 l) (map d1 m).
Proof. split; [apply d0_inj|]. split; [apply d1_inj | apply d01_disjoint]. Qed.

Lemma tagged_left B R t : accepts (with_finals (map d0 (finals B)) (tagged B R)) t <-> accepts B t.
Proof.
  rewrite <- (image_lang_inj d0 B (d0_inj _)). apply (app_lang_l (image d0 B) (image d1 R)).
  apply image_disjoint, d01_disjoint.
Qed.

Lemma tagged_right B R t : accepts (with_finals (map d1 (finals R)) (tagged B R)) t <-> accepts R t.
Proof.
  rewrite <- (image_lang_inj d1 R (d1_inj _)). apply (app_lang_r (image d0 B) (image d1 R)).
  apply image_disjoint, d01_disjoint.
Qed.

Lemma tagged_lang A B t : accepts (tagged A B) t <-> accepts A t \/ accepts B t.
Proof. apply union_lang, d01_valid. Qed.

Definition incl2_dec (A X : ta) (F1 F2 : list N) : bool :=
  forallb (fun p : mp => implb (memN (fst p) (finals A) && existsb (fun q => memN q F1) (snd p))
                               (existsb (fun q => memN q F2) (snd p))) (macro_reach A X).

Lemma existsb_evalset X t F : existsb (fun q => memN q F) (evalset X t) = true <-> accepts (with_finals F X) t.
Proof. rewrite existsb_evalset_reach, with_finals_accepts. tauto. Qed.

Theorem incl2_dec_spec A X F1 F2 : incl2_dec A X F1 F2 = true <->
  forall t, accepts A t -> accepts (with_finals F1 X) t -> accepts (with_finals F2 X) t.
Proof.
  unfold incl2_dec. rewrite macro_forall. simpl. split.
  - intros H t (q & Hq & R) H1. specialize (H t q R). apply memN_In in Hq. apply existsb_evalset in H1.
    rewrite Hq, H1 in H. apply existsb_evalset, H.
  - intros H t q R. destruct (memN q (finals A)) eqn:Eq; auto.
    destruct (existsb (fun q0 => memN q0 F1) (evalset X t)) eqn:E1; auto.
    apply existsb_evalset, H; [exists q; rewrite <- memN_In; auto | apply existsb_evalset, E1].
Qed.

Definition isect_gate (A B R : ta) : bool :=
  incl_dec R A && incl_dec R B &&
  incl2_dec A (tagged B R) (map d0 (finals B)) (map d1 (finals R)).

Theorem isect_gate_spec A B R : isect_gate A B R = true <-> forall t, accepts R t <-> accepts A t /\ accepts B t.
Proof.
  unfold isect_gate. rewrite !andb_true_iff, !incl_dec_spec, incl2_dec_spec. unfold lincl. split.
  - intros [[H1 H2] H3] t. split; [intros; split; auto|]. intros [Ha Hb].
    apply (tagged_right B R). apply H3; auto. apply (tagged_left B R); auto.
  - intros H. split; [split|]; try (intros t Ht; apply H in Ht; tauto).
    intros t Ha Hb. apply tagged_right. apply H. split; auto. apply (tagged_left B R t); auto.
Qed.

Definition union_gate (A B R : ta) : bool :=
  incl_dec A R && incl_dec B R && incl_dec R (tagged A B).

Theorem union_gate_spec A B R : union_gate A B R = true <-> forall t, accepts R t <-> accepts A t \/ accepts B t.
Proof.
  unfold union_gate. rewrite !andb_true_iff, !incl_dec_spec. unfold lincl. split.
  - intros [[H1 H2] H3] t. split; [intros Ht; apply tagged_lang; auto | intros [H|H]; auto].
  - intros H. split; [split|]; intros t Ht; try (apply H; auto). apply tagged_lang. apply H; auto.
Qed.

Record nfa := { nstarts : list N; nfinals : list N; edges : list (N * N * N) }.   (* (source, symbol, target) *)

Fixpoint wpath (A : nfa) (w : list N) (p q : N) : Prop :=
  match w with [] => p = q | a :: w' => exists m, In (p, a, m) (edges A) /\ wpath A w' m q end.
Definition waccepts (A : nfa) (w : list N) : Prop :=
  exists p q, In p (nstarts A) /\ In q (nfinals A) /\ wpath A w p q.
Definition wlincl (A B : nfa) := forall w, waccepts A w -> waccepts B w.

(* states reached after reading a word given in reverse *)
Fixpoint wreach (A : nfa) (rw : list N) (q : N) : Prop :=
  match rw with [] => In q (nstarts A) | a :: r => exists p, wreach A r p /\ In (p, a, q) (edges A) end.

Lemma wpath_app A w1 : forall w2 p q, wpath A (w1 ++ w2) p q <-> exists m, wpath A w1 p m /\ wpath A w2 m q.
Proof.
  induction w1 as [|a w1 IH]; simpl; intros w2 p q.
  - split; [intros H; exists p; auto | intros [m [-> H]]; auto].
  - split.
    + intros [m [He H]]. apply IH in H as [m' [H1 H2]]. exists m'. split; auto. exists m; auto.
    + intros [m' [[m [He H1]] H2]]. exists m. split; auto. apply IH. exists m'; auto.
Qed.

Lemma wreach_wpath A : forall rw q, wreach A rw q <-> exists p, In p (nstarts A) /\ wpath A (rev rw) p q.
Proof.
  induction rw as [|a r IH]; simpl; intros q.
  - split; [intros H; exists q; auto | intros [p [H ->]]; auto].
  - split.
    + intros [p [H He]]. apply IH in H as [s [Hs Hp]]. exists s. split; auto. apply wpath_app. exists p. split; auto.
      simpl. exists q; auto.
    + intros [s [Hs H]]. apply wpath_app in H as [m [H1 [m' [He ->]]]]. exists m. split; auto. apply IH. exists s; auto.
Qed.

Lemma waccepts_wreach A w : waccepts A w <-> exists q, In q (nfinals A) /\ wreach A (rev w) q.
Proof.
  unfold waccepts. split.
  - intros [p [q [Hp [Hq H]]]]. exists q. split; auto. apply wreach_wpath. exists p. rewrite rev_involutive; auto.
  - intros [q [Hq H]]. apply wreach_wpath in H as [p [Hp H]]. rewrite rev_involutive in H. exists p, q; auto.
Qed.

(* a word automaton as a unary tree automaton: a start state is a leaf rule with symbol 0, an edge labelled a is a unary
   rule with symbol a + 1 from source to target; a word is read from the leaf upwards, so w is the tree [wtree (rev w)] *)
Definition enc_start (s : N) : rule := {| sym := 0; ch := []; par := s |}.
Definition enc_edge (e : N * N * N) : rule := let '(p, a, q) := e in {| sym := N.succ a; ch := [p]; par := q |}.
Definition enc (A : nfa) : ta :=
  {| rules := map enc_start (nstarts A) ++ map enc_edge (edges A); finals := nfinals A |}.

Fixpoint wtree (rw : list N) : tree :=
  match rw with [] => Node 0 [] | a :: r => Node (N.succ a) [wtree r] end.

Lemma enc_rule A r : In r (rules (enc A)) <->
  (exists s, In s (nstarts A) /\ r = enc_start s) \/ (exists p a q, In (p, a, q) (edges A) /\ r = enc_edge (p, a, q)).
Proof.
  simpl. rewrite in_app_iff, !in_map_iff. split.
  - intros [[s [<- H]]|[[[p a] q] [<- H]]]; [left; exists s; auto | right; exists p, a, q; auto].
  - intros [[s [H ->]]|[p [a [q [H ->]]]]]; [left; exists s; auto | right; exists (p, a, q); auto].
Qed.

Lemma enc_reach_wtree A : forall rw q, reach (enc A) (wtree rw) q <-> wreach A rw q.
Proof.
  induction rw as [|a r IH]; simpl; intros q; rewrite reach_inv; split.
  - intros (r0 & Hr & Hs & _ & <-). apply enc_rule in Hr as [(s & Hs' & ->)|(p & a & q' & _ & ->)]; simpl in *; auto.
    destruct a; discriminate.
  - intros H. exists (enc_start q). repeat split; simpl; auto. apply enc_rule; eauto.
  - intros (r0 & Hr & Hs & F & <-). apply enc_rule in Hr as [(s & _ & ->)|(p & a' & q' & He & ->)]; simpl in *.
    + destruct a; discriminate.
    + apply N.succ_inj in Hs as ->. inversion F; subst. exists p. split; auto. apply IH; auto.
  - intros (p & H & He). exists (enc_edge (p, a, q)). repeat split; simpl; auto; [apply enc_rule; eauto 6|].
    constructor; [apply IH; auto | constructor].
Qed.

Lemma enc_reach_shape A : forall t q, reach (enc A) t q -> exists rw, t = wtree rw.
Proof.
  apply (reach_ind' (enc A) (fun t _ => exists rw, t = wtree rw)).
  intros f ts r Hr Hs HF IH. apply enc_rule in Hr as [[s [Hs' ->]]|[p [a [q' [He ->]]]]]; simpl in *.
  - inversion HF; subst. exists []. reflexivity.
  - inversion IH as [|t c ts' cs [rw ->] F]; subst. inversion F; subst. exists (a :: rw). reflexivity.
Qed.

Theorem enc_accepts A w : waccepts A w <-> accepts (enc A) (wtree (rev w)).
Proof.
  rewrite waccepts_wreach. unfold accepts. simpl. split; intros [q [Hq H]]; exists q; split; auto; apply enc_reach_wtree; auto.
Qed.

Lemma enc_accepts_inv A t : accepts (enc A) t -> exists w, t = wtree (rev w) /\ waccepts A w.
Proof.
  intros (q & Hq & R). destruct (enc_reach_shape A t q R) as [rw ->]. exists (rev rw).
  rewrite rev_involutive. split; auto. apply enc_accepts. rewrite rev_involutive. exists q; auto.
Qed.

Theorem enc_lincl A B : wlincl A B <-> lincl (enc A) (enc B).
Proof.
  split.
  - intros H t Ht. apply enc_accepts_inv in Ht as (w & -> & Hw). apply enc_accepts, H, Hw.
  - intros H w Hw. apply enc_accepts, H, enc_accepts, Hw.
Qed.

Definition wincl_dec (A B : nfa) : bool := incl_dec (enc A) (enc B).
Theorem wincl_dec_spec A B : wincl_dec A B = true <-> wlincl A B.
Proof. unfold wincl_dec. rewrite incl_dec_spec. symmetry. apply enc_lincl. Qed.

Definition wequiv_dec (A B : nfa) : bool := wincl_dec A B && wincl_dec B A.
Theorem wequiv_dec_spec A B : wequiv_dec A B = true <-> forall w, waccepts A w <-> waccepts B w.
Proof.
  unfold wequiv_dec. rewrite andb_true_iff, !wincl_dec_spec. unfold wlincl. split.
  - intros [H1 H2] w; split; auto.
  - intros H; split; intros w Hw; apply H; auto.
Qed.

Definition wis_empty (A : nfa) : bool := is_empty (enc A).
Theorem wis_empty_spec A : wis_empty A = true <-> forall w, ~ waccepts A w.
Proof.
  unfold wis_empty. rewrite is_empty_spec. split.
  - intros H w Hw. apply (H _ (proj1 (enc_accepts A w) Hw)).
  - intros H t Ht. apply enc_accepts_inv in Ht as (w & _ & Hw). apply (H w Hw).
Qed.
