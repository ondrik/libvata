(* C09, algorithm-level model — the antichain algorithm with its memo tables (NfaAcDefs.v) returns, for every pair of
   word automata, exactly the verdict of the verified decider:
     memo_sound_init, memo_sound_step
                     the two memo tables only ever contain true comparison results (current filling)
     ac_erase        hence the run equals the run of the memo-free algorithm
     loop0_correct   the memo-free worklist algorithm is partially correct (any fuel, any pick order)
     ac_terminates   the structural fuel [ac_fuel] suffices
     ac_refines      ac_model A B = wincl_dec A B
     memo_refuted    with the historical filling the model answers "included" wrongly (vm_compute) *)
From Coq Require Import List NArith Bool Arith Lia Permutation.
Import ListNotations.
From V Require Import ListAux Sem Incl TrimProofs Lang NfaDefs NfaProofs NfaAcDefs.

Lemma msub_true l r : msub l r = true <-> incl l r /\ length l <= length r.
Proof.
  unfold msub. destruct (Nat.ltb_spec (length r) (length l)) as [H|H].
  - split; [discriminate | intros [_ X]; lia].
  - rewrite subN_spec. split; [intros X; split; auto | tauto].
Qed.
Lemma msub_refl l : msub l l = true.
Proof. apply msub_true. split; [apply incl_refl | lia]. Qed.
Lemma msub_trans a b c : msub a b = true -> msub b c = true -> msub a c = true.
Proof.
  intros H K. apply msub_true in H as [H1 H2]. apply msub_true in K as [K1 K2].
  apply msub_true. split; [eapply incl_tran; eauto | lia].
Qed.

Lemma filter_len_mono {X} (f g : X -> bool) l :
  (forall x, In x l -> f x = true -> g x = true) -> length (filter f l) <= length (filter g l).
Proof.
  induction l as [|x l IH]; simpl; intros H; auto.
  specialize (IH (fun y Hy => H y (or_intror Hy))). specialize (H x (or_introl eq_refl)).
  destruct (f x); [rewrite H by auto | destruct (g x)]; simpl; lia.
Qed.

Lemma filter_len_strict {X} (f g : X -> bool) l z :
  (forall x, In x l -> f x = true -> g x = true) -> In z l -> f z = false -> g z = true ->
  length (filter f l) < length (filter g l).
Proof.
  induction l as [|x l IH]; simpl; intros H Hz Hf Hg; [destruct Hz|].
  pose proof (filter_len_mono f g l (fun y Hy => H y (or_intror Hy))) as Hle.
  destruct Hz as [->|Hz]; [rewrite Hf, Hg; simpl; lia|].
  specialize (IH (fun y Hy => H y (or_intror Hy)) Hz Hf Hg). specialize (H x (or_introl eq_refl)).
  destruct (f x); [rewrite H by auto | destruct (g x)]; simpl; lia.
Qed.

Lemma fold_left_once {X Y} (f : X -> Y -> X) (P : X -> Prop) l y :
  In y l -> (forall x, P (f x y)) -> (forall x z, P x -> P (f x z)) -> forall x, P (fold_left f l x).
Proof.
  intros Hy H1 H2. revert Hy. induction l as [|z l IH]; simpl; [intros [] | intros [->|Hy] x]; auto.
  apply fold_left_inv; auto.
Qed.

Lemma mpost_test_spec B a P q :
  existsb (fun e => memN (esrc e) P && N.eqb (esym e) a && N.eqb (edst e) q) (edges B) = true <-> exists p, In p P /\ In (p, a, q) (edges B).
Proof.
  rewrite existsb_exists. split.
  - intros [e [He H]]. apply andb_true_iff in H as [H H3]. apply andb_true_iff in H as [H1 H2].
    apply memN_In in H1. apply N.eqb_eq in H2, H3. subst. exists (esrc e). rewrite <- edge_eta. auto.
  - intros [p [Hp He]]. exists (p, a, q). split; auto. apply memN_In in Hp.
    cbn [esrc esym edst fst snd]. rewrite Hp, !N.eqb_refl. reflexivity.
Qed.

Lemma Qn_in B q : In q (Qn B) <-> In q (nstates B).
Proof. apply nodup_In. Qed.

Lemma mpost_in B a P q : In q (mpost B a P) <-> exists p, In p P /\ In (p, a, q) (edges B).
Proof.
  unfold mpost. rewrite filter_In, mpost_test_spec. split; [tauto|].
  intros [p [Hp He]]. split; [|exists p; auto]. apply nodup_In. apply nstates_edge in He. tauto.
Qed.

Lemma mpost_mono B a Q P : msub Q P = true -> msub (mpost B a Q) (mpost B a P) = true.
Proof.
  rewrite !msub_true. intros [Hi _]. split.
  - intros q Hq. apply mpost_in in Hq as [p [Hp He]]. apply mpost_in. exists p. auto.
  - apply filter_len_mono. intros q _ H. apply mpost_test_spec in H as [p [Hp He]].
    apply mpost_test_spec. exists p. auto.
Qed.

Lemma macc_spec B P : macc B P = true <-> exists q, In q P /\ In q (nfinals B).
Proof. apply existsb_final. Qed.
Lemma macc_mono B Q P : msub Q P = true -> macc B Q = true -> macc B P = true.
Proof. unfold macc. rewrite msub_true, !existsb_final. intros [Hi _] [q [H1 H2]]. exists q. auto. Qed.

Fixpoint mrun (B : nfa) (rw : list N) : mset :=
  match rw with [] => minit B | a :: r => mpost B a (mrun B r) end.

Lemma mrun_spec B : forall rw q, In q (mrun B rw) <-> wreach B rw q.
Proof.
  induction rw as [|a r IH]; simpl; intros q.
  - unfold minit, Qn. rewrite filter_In, memN_In, nodup_In. split; [tauto|]. intros H. split; auto. apply nstates_start; auto.
  - rewrite mpost_in. split; intros [p [H1 H2]]; exists p; split; auto; apply IH; auto.
Qed.

Definition memo_sound (m : memo) : Prop :=
  (forall l r, In (l, r) (fst m) -> msub l r = true) /\ (forall l r, In (l, r) (snd m) -> msub l r = false).

Lemma mset_eqb_eq l r : mset_eqb l r = true <-> l = r.
Proof. unfold mset_eqb. destruct (list_eq_dec N.eq_dec l r); split; auto; discriminate. Qed.

Lemma mem_pair_In x m : mem_pair x m = true <-> In x m.
Proof.
  unfold mem_pair. rewrite existsb_exists. split.
  - intros [y [Hy H]]. apply andb_true_iff in H as [H1 H2]. apply mset_eqb_eq in H1, H2.
    destruct x, y; simpl in *; subst; auto.
  - intros H. exists x. split; auto. apply andb_true_iff. split; apply mset_eqb_eq; auto.
Qed.

Lemma memo_sound_nil : memo_sound ([], []).
Proof. split; intros l r []. Qed.

Definition returns {X} (r : X * memo) (v : X) : Prop := exists m, memo_sound m /\ r = (v, m).

Lemma lte_m_sound m l r : memo_sound m -> returns (lte_m false m l r) (msub l r).
Proof.
  intros [Hp Hn]. unfold lte_m.
  destruct (mem_pair (l, r) (fst m)) eqn:E1.
  { apply mem_pair_In in E1. exists m. rewrite (Hp l r E1). split; [split|]; auto. }
  destruct (mem_pair (l, r) (snd m)) eqn:E2.
  { apply mem_pair_In in E2. exists m. rewrite (Hn l r E2). split; [split|]; auto. }
  destruct (msub l r) eqn:E; eexists; (split; [|reflexivity]); split; simpl; auto;
    intros l' r' [[= <- <-]|X]; auto.
Qed.

(* with the current filling [gte_m] is [lte_m] with the operands exchanged *)
Lemma gte_m_sound m l r : memo_sound m -> returns (gte_m false m l r) (msub r l).
Proof. exact (lte_m_sound m r l). Qed.

Definition covers (X : list mpair) (p : N) (S : mset) : bool :=
  existsb (fun x => N.eqb (fst x) p && msub (snd x) S) X.
Definition prune (X : list mpair) (p : N) (S : mset) : list mpair :=
  filter (fun x => negb (N.eqb (fst x) p && msub S (snd x))) X.

Lemma contains_m_sound : forall X m p S, memo_sound m -> returns (contains_m false m X p S) (covers X p S).
Proof.
  induction X as [|x X IH]; intros m p S Hm; [exists m; auto|].
  cbn [contains_m covers existsb]. destruct (N.eqb (fst x) p); [|apply IH, Hm].
  destruct (lte_m_sound m (snd x) S Hm) as (m' & Hm' & ->). cbn [fst snd andb].
  destruct (msub (snd x) S); [exists m'; auto | apply IH, Hm'].
Qed.

Lemma refine_m_sound : forall X m p S, memo_sound m -> returns (refine_m false m X p S) (prune X p S).
Proof.
  induction X as [|x X IH]; intros m p S Hm; [exists m; auto|].
  cbn [refine_m prune filter]. destruct (N.eqb (fst x) p).
  - destruct (gte_m_sound m (snd x) S Hm) as (m' & Hm' & ->). cbn [fst snd andb].
    destruct (IH m' p S Hm') as (m'' & Hm'' & ->). exists m''. destruct (msub S (snd x)); auto.
  - destruct (IH m p S Hm) as (m' & Hm' & ->). exists m'. auto.
Qed.

Record pst := { p_ac : list mpair; p_nx : list mpair; p_fail : bool }.
Definition erase (st : acst) : pst := {| p_ac := st_ac st; p_nx := st_nx st; p_fail := st_fail st |}.

Definition add_pair0 (s : pst) (p : N) (S : mset) : pst :=
  if covers (p_ac s) p S then s
  else
    let ac2 := prune (p_ac s) p S ++ [(p, S)] in
    if covers (p_nx s) p S then {| p_ac := ac2; p_nx := p_nx s; p_fail := p_fail s |}
    else {| p_ac := ac2; p_nx := prune (p_nx s) p S ++ [(p, S)]; p_fail := p_fail s |}.

Definition init_step0 (A B : nfa) (s : pst) (q : N) : pst :=
  let s' := add_pair0 s q (minit B) in
  {| p_ac := p_ac s'; p_nx := p_nx s'; p_fail := p_fail s' || (memN q (nfinals A) && negb (macc B (minit B))) |}.
Definition init0 (A B : nfa) : pst :=
  fold_left (init_step0 A B) (nstarts A) {| p_ac := []; p_nx := []; p_fail := false |}.

Fixpoint post_edges0 (A B : nfa) (es : list edge) (P : mset) (s : pst) : pst :=
  match es with
  | [] => s
  | e :: r =>
      let P' := mpost B (esym e) P in
      if memN (edst e) (nfinals A) && negb (macc B P') then {| p_ac := p_ac s; p_nx := p_nx s; p_fail := true |}
      else post_edges0 A B r P (add_pair0 s (edst e) P')
  end.

Fixpoint loop0 (fuel : nat) (A B : nfa) (s : pst) : option bool :=
  if p_fail s then Some false else
  match fuel with
  | 0 => None
  | S f =>
      match p_nx s with
      | [] => Some true
      | x :: r => let mr := extract_min x r in
                  loop0 f A B (post_edges0 A B (out_edges A (fst (fst mr))) (snd (fst mr))
                                 {| p_ac := p_ac s; p_nx := snd mr; p_fail := p_fail s |})
      end
  end.

Definition erases_to (st : acst) (s : pst) : Prop := erase st = s /\ memo_sound (st_memo st).

Lemma add_pair_erases st s p S : erases_to st s -> erases_to (add_pair false st p S) (add_pair0 s p S).
Proof.
  intros [<- Hm]. unfold add_pair, add_pair0. simpl.
  destruct (contains_m_sound (st_ac st) (st_memo st) p S Hm) as (m1 & M1 & ->). cbn [fst snd].
  destruct (covers (st_ac st) p S); [split; auto|].
  destruct (refine_m_sound (st_ac st) m1 p S M1) as (m2 & M2 & ->). cbn [fst snd].
  destruct (contains_m_sound (st_nx st) m2 p S M2) as (m3 & M3 & ->). cbn [fst snd].
  destruct (covers (st_nx st) p S); [split; auto|].
  destruct (refine_m_sound (st_nx st) m3 p S M3) as (m4 & M4 & ->). split; auto.
Qed.

Lemma ac_init_erases A B : erases_to (ac_init false A B) (init0 A B).
Proof.
  apply (fold_left_rel erases_to); [|split; [reflexivity | apply memo_sound_nil]].
  intros st s q H. unfold init_step0. destruct (add_pair_erases st s q (minit B) H) as [<- M]. split; auto.
Qed.

Lemma post_edges_erases A B : forall es P st s, erases_to st s ->
  erases_to (post_edges false A B es P st) (post_edges0 A B es P s).
Proof.
  induction es as [|e es IH]; intros P st s H; simpl; auto.
  destruct (memN (edst e) (nfinals A) && negb (macc B (mpost B (esym e) P))).
  - destruct H as [<- M]. split; auto.
  - apply IH, add_pair_erases, H.
Qed.

Theorem ac_erase A B : forall fuel st s, erases_to st s -> ac_loop false fuel A B st = loop0 fuel A B s.
Proof.
  induction fuel as [|f IH]; intros st s [<- Hm]; simpl; [reflexivity|].
  destruct (st_fail st) eqn:Ef; auto. destruct (st_nx st) as [|x r]; auto.
  apply IH, post_edges_erases. split; auto. unfold erase. simpl. rewrite Ef. reflexivity.
Qed.

Lemma covers_spec X p S : covers X p S = true <-> exists Q, In (p, Q) X /\ msub Q S = true.
Proof.
  unfold covers. rewrite existsb_exists. split.
  - intros [[q Q] [Hx H]]. simpl in H. apply andb_true_iff in H as [H1 H2]. apply N.eqb_eq in H1. subst. exists Q. auto.
  - intros [Q [Hx H]]. exists (p, Q). split; auto. simpl. rewrite N.eqb_refl, H. reflexivity.
Qed.

Lemma covers_up X p S T : covers X p S = true -> msub S T = true -> covers X p T = true.
Proof. rewrite !covers_spec. intros [Q [H1 H2]] H. exists Q. split; auto. eapply msub_trans; eauto. Qed.

(* AddNewPairToAntichain / AddToNext on one list: a pair that is not covered replaces those it covers *)
Definition insert (X : list mpair) (p : N) (S : mset) : list mpair :=
  if covers X p S then X else prune X p S ++ [(p, S)].

Lemma add_pair0_eq s p S : add_pair0 s p S =
  if covers (p_ac s) p S then s
  else {| p_ac := insert (p_ac s) p S; p_nx := insert (p_nx s) p S; p_fail := p_fail s |}.
Proof. unfold add_pair0, insert. destruct (covers (p_ac s) p S); auto. destruct (covers (p_nx s) p S); auto. Qed.

Lemma insert_in X p S x : In x (insert X p S) -> In x X \/ x = (p, S).
Proof.
  unfold insert. destruct (covers X p S); auto. intros H. apply in_app_or in H as [H|[<-|[]]]; auto.
  apply filter_In in H. tauto.
Qed.
Lemma insert_len X p S : length (insert X p S) <= length X + 1.
Proof.
  unfold insert. destruct (covers X p S); [lia|]. rewrite app_length. apply Nat.add_le_mono_r, filter_length_le.
Qed.
Lemma insert_cov X p S : covers (insert X p S) p S = true.
Proof.
  unfold insert. destruct (covers X p S) eqn:E; auto.
  apply covers_spec. exists S. split; [apply in_or_app; right; simpl; auto | apply msub_refl].
Qed.
Lemma insert_mono X p S q T : covers X q T = true -> covers (insert X p S) q T = true.
Proof.
  unfold insert. destruct (covers X p S); auto. intros H. apply covers_spec in H as [Q [Hx H]]. apply covers_spec.
  destruct (N.eqb q p && msub S Q) eqn:E.
  - apply andb_true_iff in E as [E1 E2]. apply N.eqb_eq in E1. subst q. exists S. split.
    + apply in_or_app. right. simpl; auto.
    + eapply msub_trans; eauto.
  - exists Q. split; auto. apply in_or_app. left. apply filter_In. simpl. rewrite E. auto.
Qed.

Lemma ap_fail s p S : p_fail (add_pair0 s p S) = p_fail s.
Proof. rewrite add_pair0_eq. destruct (covers (p_ac s) p S); auto. Qed.
Lemma ap_ac_mono s p S q T : covers (p_ac s) q T = true -> covers (p_ac (add_pair0 s p S)) q T = true.
Proof. rewrite add_pair0_eq. destruct (covers (p_ac s) p S); auto. apply insert_mono. Qed.
Lemma ap_ac_cov s p S : covers (p_ac (add_pair0 s p S)) p S = true.
Proof. rewrite add_pair0_eq. destruct (covers (p_ac s) p S) eqn:E; auto. apply insert_cov. Qed.

Lemma post_edges0_mono A B q T : forall es P s,
  covers (p_ac s) q T = true -> covers (p_ac (post_edges0 A B es P s)) q T = true.
Proof.
  induction es as [|e es IH]; intros P s H; simpl; auto.
  destruct (memN (edst e) (nfinals A) && negb (macc B (mpost B (esym e) P))); auto. apply IH, ap_ac_mono, H.
Qed.
Lemma post_edges0_cov A B : forall es P s, p_fail (post_edges0 A B es P s) = false ->
  forall e, In e es -> covers (p_ac (post_edges0 A B es P s)) (edst e) (mpost B (esym e) P) = true.
Proof.
  induction es as [|e es IH]; intros P s Hf e' []; simpl in *;
    destruct (memN (edst e) (nfinals A) && negb (macc B (mpost B (esym e) P))); try discriminate; auto.
  subst e'. apply post_edges0_mono, ap_ac_cov.
Qed.

Lemma extract_min_perm : forall r x, Permutation (x :: r) (fst (extract_min x r) :: snd (extract_min x r)).
Proof.
  induction r as [|y r IH]; intros x; simpl; auto.
  destruct (mp_less y x); simpl.
  - rewrite (IH y). apply perm_swap.
  - rewrite perm_swap, (IH x). apply perm_swap.
Qed.

Section Correct.
Variables A B : nfa.

Definition Rsem (x : mpair) : Prop := exists rw, wreach A rw (fst x) /\ snd x = mrun B rw.
(* the test of Init and MakePost: an accepting state of A against a rejecting macro-state of B *)
Definition unsafe (q : N) (T : mset) : bool := memN q (nfinals A) && negb (macc B T).
Definition Closed (X : list mpair) (x : mpair) : Prop :=
  forall e, In e (edges A) -> esrc e = fst x -> covers X (edst e) (mpost B (esym e) (snd x)) = true.

(* [pend]: the pair being processed by MakePost (popped from the worklist, successors not yet all stored) *)
Record InvP (pend : option mpair) (s : pst) : Prop := {
  inv_nx : forall x, In x (p_nx s) -> Rsem x;
  inv_safe : forall x, In x (p_ac s) -> unsafe (fst x) (snd x) = false;
  inv_done : forall x, In x (p_ac s) ->
     covers (p_nx s) (fst x) (snd x) = true \/ Closed (p_ac s) x \/
     (exists y, pend = Some y /\ fst x = fst y /\ msub (snd y) (snd x) = true) }.
(* once the flag is set the run stops with the answer "not included" *)
Definition AcInv (pend : option mpair) (s : pst) : Prop := if p_fail s then ~ wlincl A B else InvP pend s.

Lemma closed_mono X Y x : (forall q T, covers X q T = true -> covers Y q T = true) -> Closed X x -> Closed Y x.
Proof. intros H C e He Hs. apply H, C; auto. Qed.

Lemma closed_up X x y : fst x = fst y -> msub (snd y) (snd x) = true -> Closed X y -> Closed X x.
Proof.
  intros Hf Hs C e He Hsrc. eapply covers_up; [apply C; auto; congruence|]. apply mpost_mono; auto.
Qed.

Lemma rsem_succ x e : Rsem x -> In e (edges A) -> esrc e = fst x -> Rsem (edst e, mpost B (esym e) (snd x)).
Proof.
  intros [rw [Hr Hs]] He Hsrc. exists (esym e :: rw). simpl. split.
  - exists (fst x). split; auto. rewrite <- Hsrc, <- edge_eta. auto.
  - rewrite Hs. reflexivity.
Qed.

Lemma rsem_unsafe q T : Rsem (q, T) -> unsafe q T = true -> ~ wlincl A B.
Proof.
  intros [rw [Hr Hs]] E Hincl. simpl in Hr, Hs. apply andb_true_iff in E as [Hf Hm]. apply memN_In in Hf.
  assert (HA : waccepts A (rev rw)). { apply waccepts_wreach. exists q. rewrite rev_involutive. auto. }
  apply Hincl, waccepts_wreach in HA as [f [Hf' Hw]]. rewrite rev_involutive in Hw.
  assert (X : macc B T = true). { apply existsb_final. exists f. split; auto. rewrite Hs. apply mrun_spec; auto. }
  rewrite X in Hm. discriminate.
Qed.

Lemma add_pair0_inv pend s q T : InvP pend s -> Rsem (q, T) -> unsafe q T = false -> InvP pend (add_pair0 s q T).
Proof.
  intros I HR HS. rewrite add_pair0_eq. destruct (covers (p_ac s) q T); [exact I|]. split; simpl.
  - intros x Hx. apply insert_in in Hx as [Hx| ->]; auto. apply (inv_nx _ _ I); auto.
  - intros x Hx. apply insert_in in Hx as [Hx| ->]; auto. apply (inv_safe _ _ I); auto.
  - intros x Hx. apply insert_in in Hx as [Hx| ->]; [|left; apply insert_cov].
    destruct (inv_done _ _ I x Hx) as [H|[H|H]]; [left; apply insert_mono; auto | right; left | right; right; auto].
    eapply closed_mono; [|exact H]. intros; apply insert_mono; auto.
Qed.

Lemma post_edges0_inv pend y : Rsem y -> forall es s, (forall e, In e es -> In e (edges A) /\ esrc e = fst y) ->
  InvP pend s -> p_fail s = false -> AcInv pend (post_edges0 A B es (snd y) s).
Proof.
  intros HR. induction es as [|e es IH]; intros s Hes I Hf; simpl.
  - unfold AcInv. rewrite Hf. exact I.
  - destruct (Hes e (or_introl eq_refl)) as [He Hsrc]. pose proof (rsem_succ y e HR He Hsrc) as HR'.
    destruct (memN (edst e) (nfinals A) && negb (macc B (mpost B (esym e) (snd y)))) eqn:E.
    + exact (rsem_unsafe _ _ HR' E).
    + apply IH; [intros; apply Hes; right; auto | apply add_pair0_inv; auto | rewrite ap_fail; auto].
Qed.

Definition starts_covered (s : pst) : Prop := forall q, In q (nstarts A) -> covers (p_ac s) q (minit B) = true.

Lemma final_cover s : InvP None s -> p_nx s = [] -> starts_covered s ->
  forall rw p, wreach A rw p -> covers (p_ac s) p (mrun B rw) = true.
Proof.
  intros I Hn Hst. induction rw as [|a r IH]; simpl; intros p Hp.
  - apply Hst; auto.
  - destruct Hp as [p0 [Hp0 He]]. apply IH in Hp0. apply covers_spec in Hp0 as [Q [HQ Hs]].
    destruct (inv_done _ _ I _ HQ) as [H|[H|[y [H _]]]].
    + rewrite Hn in H. discriminate.
    + apply (covers_up _ _ _ _ (H (p0, a, p) He eq_refl)), mpost_mono, Hs.
    + discriminate.
Qed.

Lemma inv_exit s : InvP None s -> p_nx s = [] -> starts_covered s -> wlincl A B.
Proof.
  intros I En Hst w Hw. apply waccepts_wreach in Hw as [q [Hq Hw]].
  pose proof (final_cover s I En Hst _ _ Hw) as C. apply covers_spec in C as [Q [HQ Hs]].
  pose proof (inv_safe _ _ I _ HQ) as Hacc. unfold unsafe in Hacc. simpl in Hacc.
  apply memN_In in Hq. rewrite Hq in Hacc. apply negb_false_iff in Hacc.
  apply (macc_mono B _ _ Hs), existsb_final in Hacc as [f [Hf1 Hf2]].
  apply waccepts_wreach. exists f. split; auto. apply mrun_spec; auto.
Qed.

(* one round of the main loop: a pair [y] leaves the worklist (whichever it is) and MakePost runs on it *)
Lemma inv_step s y rest : InvP None s -> (forall z, In z (p_nx s) <-> z = y \/ In z rest) ->
  AcInv None (post_edges0 A B (out_edges A (fst y)) (snd y) {| p_ac := p_ac s; p_nx := rest; p_fail := false |}).
Proof.
  intros I Hmem. set (s1 := {| p_ac := p_ac s; p_nx := rest; p_fail := false |}).
  assert (HRy : Rsem y) by (apply (inv_nx _ _ I), Hmem; auto).
  assert (I1 : InvP (Some y) s1).
  { split; simpl.
    - intros z Hz. apply (inv_nx _ _ I), Hmem; auto.
    - apply (inv_safe _ _ I).
    - intros z Hz. destruct (inv_done _ _ I z Hz) as [H|[H|[y' [H _]]]]; [|right; left; auto|discriminate].
      apply covers_spec in H as [Q [HQ Hs]]. apply Hmem in HQ as [HQ|HQ].
      + right; right. exists y. split; auto. rewrite <- HQ. simpl. auto.
      + left. apply covers_spec. exists Q. auto. }
  pose proof (post_edges0_inv _ y HRy (out_edges A (fst y)) s1 (fun e => proj1 (out_edges_in A (fst y) e)) I1 eq_refl) as J.
  unfold AcInv in *. destruct (p_fail (post_edges0 A B (out_edges A (fst y)) (snd y) s1)) eqn:Ef; auto.
  split; [apply (inv_nx _ _ J) | apply (inv_safe _ _ J) |].
  intros z Hz. destruct (inv_done _ _ J z Hz) as [H|[H|[y' [[= <-] [H1 H2]]]]]; auto.
  right; left. apply (closed_up _ z y H1 H2).
  intros e He Hsrc. apply (post_edges0_cov _ _ _ _ _ Ef), out_edges_in. auto.
Qed.

Theorem loop0_correct : forall fuel s b, AcInv None s -> starts_covered s ->
  loop0 fuel A B s = Some b -> (b = true <-> wlincl A B).
Proof.
  assert (F : forall b, ~ wlincl A B -> Some false = Some b -> (b = true <-> wlincl A B)).
  { intros b H [= <-]. split; [discriminate | intros X; destruct (H X)]. }
  induction fuel as [|f IH]; intros s b I Hst; unfold AcInv in I; simpl; destruct (p_fail s) eqn:Ef;
    [exact (F b I) | discriminate | exact (F b I) |].
  destruct (p_nx s) as [|x r] eqn:En.
  - intros [= <-]. split; auto. intros _. apply (inv_exit s); auto.
  - apply IH; [apply inv_step; auto | intros q Hq; apply post_edges0_mono, Hst, Hq].
    intros z. rewrite En, (extract_min_perm r x). simpl. split; intros [H|H]; auto.
Qed.

Lemma init_step0_inv s q : In q (nstarts A) -> AcInv None s -> AcInv None (init_step0 A B s q).
Proof.
  intros Hq. unfold AcInv, init_step0. simpl. rewrite ap_fail. destruct (p_fail s); simpl; auto. intros I.
  assert (HR : Rsem (q, minit B)) by (exists []; simpl; auto).
  destruct (memN q (nfinals A) && negb (macc B (minit B))) eqn:E; [exact (rsem_unsafe _ _ HR E)|].
  destruct (add_pair0_inv None s q (minit B) I HR E) as [J1 J2 J3]. split; auto.
Qed.

Lemma init0_inv : AcInv None (init0 A B) /\ starts_covered (init0 A B).
Proof.
  unfold init0. split.
  - apply fold_left_inv; [intros s q; apply init_step0_inv | split; intros x []].
  - intros q Hq. apply (fold_left_once _ (fun s => covers (p_ac s) q (minit B) = true) _ q Hq); intros s.
    + apply ap_ac_cov.
    + intros z. apply ap_ac_mono.
Qed.

Theorem ac0_partial fuel b : loop0 fuel A B (init0 A B) = Some b -> (b = true <-> wlincl A B).
Proof. destruct init0_inv as [H1 H2]. apply loop0_correct; auto. Qed.

End Correct.

Section Termination.
Variables A B : nfa.
Let U := ac_universe A B.

(* twice the pairs of the universe that the antichain does not cover, plus the length of the worklist:
   storing a pair uncovers nothing and covers the pair itself *)
Definition uncov (X : list mpair) (x : mpair) : bool := negb (covers X (fst x) (snd x)).
Definition unc (X : list mpair) : nat := length (filter (uncov X) U).
Definition mu (s : pst) : nat := 2 * unc (p_ac s) + length (p_nx s).

Lemma unc_insert X p S : In (p, S) U -> covers X p S = false -> unc (insert X p S) < unc X.
Proof.
  intros HU Hc. apply (filter_len_strict _ _ U (p, S)); auto; unfold uncov; simpl.
  - intros x _. rewrite !negb_true_iff. intros H.
    destruct (covers X (fst x) (snd x)) eqn:E; auto. apply (insert_mono X p S) in E. congruence.
  - rewrite insert_cov. reflexivity.
  - rewrite Hc. reflexivity.
Qed.

Lemma add_pair0_mu s p S : In (p, S) U -> mu (add_pair0 s p S) <= mu s.
Proof.
  intros HU. rewrite add_pair0_eq. destruct (covers (p_ac s) p S) eqn:E; auto.
  pose proof (unc_insert (p_ac s) p S HU E). pose proof (insert_len (p_nx s) p S). unfold mu. cbn [p_ac p_nx]. lia.
Qed.

Lemma in_universe q f : In q (nstates A) -> In (q, filter f (Qn B)) U.
Proof. intros Hq. apply in_prod; [apply nodup_In; auto | apply filter_sublist]. Qed.

Lemma post_edges0_mu : forall es P s, (forall e, In e es -> In e (edges A)) -> mu (post_edges0 A B es P s) <= mu s.
Proof.
  induction es as [|e es IH]; intros P s Hes; simpl; auto.
  destruct (memN (edst e) (nfinals A) && negb (macc B (mpost B (esym e) P))); [unfold mu; simpl; lia|].
  etransitivity; [apply IH; intros; apply Hes; right; auto|].
  apply add_pair0_mu, in_universe.
  assert (He : In e (edges A)) by (apply Hes; left; auto). rewrite (edge_eta e) in He. apply nstates_edge in He. tauto.
Qed.

Lemma loop0_terminates : forall fuel s, mu s < fuel -> loop0 fuel A B s <> None.
Proof.
  induction fuel as [|f IH]; intros s Hmu; [lia|]. simpl.
  destruct (p_fail s) eqn:Ef; [discriminate|].
  destruct (p_nx s) as [|x r] eqn:En; [discriminate|].
  apply IH.
  eapply Nat.le_lt_trans; [apply post_edges0_mu; intros e He; apply out_edges_in in He; tauto|].
  pose proof (Permutation_length (extract_min_perm r x)) as L. unfold mu in *. rewrite En in Hmu. simpl in *. lia.
Qed.

Lemma init0_mu : mu (init0 A B) <= 2 * length U.
Proof.
  unfold init0. apply fold_left_inv.
  - intros s q Hq H. etransitivity; [|exact H]. apply (add_pair0_mu s q (minit B)), in_universe, nstates_start, Hq.
  - unfold mu, unc. simpl. pose proof (filter_length_le (uncov []) U). lia.
Qed.

Lemma universe_len : length U = length (Qn A) * 2 ^ length (Qn B).
Proof.
  subst U. unfold ac_universe. etransitivity; [apply (prod_length (Qn A) (sublists (Qn B)))|].
  rewrite sublists_length. reflexivity.
Qed.

Theorem ac0_terminates : loop0 (ac_fuel A B) A B (init0 A B) <> None.
Proof. apply loop0_terminates. unfold ac_fuel. rewrite <- universe_len. pose proof init0_mu. lia. Qed.

End Termination.

Theorem ac_run_eq A B : ac_run false A B = loop0 (ac_fuel A B) A B (init0 A B).
Proof. apply ac_erase, ac_init_erases. Qed.

Theorem ac_terminates A B : ac_run false A B <> None.
Proof. rewrite ac_run_eq. apply ac0_terminates. Qed.

Theorem ac_partial A B fuel b : ac_loop false fuel A B (ac_init false A B) = Some b -> (b = true <-> wlincl A B).
Proof. rewrite (ac_erase A B fuel _ _ (ac_init_erases A B)). apply ac0_partial. Qed.

Theorem ac_model_spec A B : ac_model A B = true <-> wlincl A B.
Proof.
  unfold ac_model. pose proof (ac_terminates A B) as T. destruct (ac_run false A B) as [b|] eqn:E; [|congruence].
  rewrite <- (ac_partial A B (ac_fuel A B) b E). tauto.
Qed.

Theorem ac_refines A B : ac_model A B = wincl_dec A B.
Proof. apply wverdict_refines, ac_model_spec. Qed.

Theorem ac_incl_model_spec A B : ac_incl_model A B = true <-> wlincl A B.
Proof. unfold ac_incl_model. rewrite ac_model_spec. apply nuseless_lincl. Qed.

Theorem memo_sound_init A B : memo_sound (st_memo (ac_init false A B)).
Proof. apply ac_init_erases. Qed.
Theorem memo_sound_step A B st p P : memo_sound (st_memo st) -> memo_sound (st_memo (make_post false A B st p P)).
Proof. intros H. apply (post_edges_erases A B _ P st (erase st)). split; auto. Qed.

(* the historical memo filling (before commit 7ca3f30b) *)
Definition acw_A : nfa := {| nstarts := [0; 1]%N; nfinals := [0%N]; edges := [(0, 0, 1); (1, 0, 0)]%N |}.
Definition acw_B : nfa := {| nstarts := [0%N]; nfinals := [0%N]; edges := [(0, 0, 1); (1, 0, 0)]%N |}.

(* the word "a" is accepted by acw_A (from start state 1) and not by acw_B (even lengths only), but the
   run with the historical filling answers "included": a failed test {0} ⊆ {1} had recorded {1} ⊆ {0} *)
Theorem memo_refuted : exists A B, ac_run true A B = Some true /\ wincl_dec A B = false.
Proof. exists acw_A, acw_B. split; vm_compute; reflexivity. Qed.
Example memo_fixed_witness : ac_run false acw_A acw_B = Some false.
Proof. vm_compute. reflexivity. Qed.
