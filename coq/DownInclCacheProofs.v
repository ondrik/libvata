(* Proofs about the recursive downward inclusion algorithm with the cache of positive answers (DownInclCacheDefs.v):
   with a cache per expansion (shared = false, libvata's discipline) an answer is the truth, whatever the fuel;
   with ONE cache for the whole computation (shared = true) the algorithm answers "included" on a pair that is not. *)
From Coq Require Import List NArith.
Import ListNotations.
From V Require Import Sem Incl DownIncl DownInclCacheDefs DownInclOptDefs DownInclState.

(* [forall_st], [exists_st] are [forall_s], [exists_s] of DownInclOptDefs.v at the state type [cache] *)
Lemma forall_st_s {X} (f g : X -> cache -> option (bool * cache)) l : (forall x C, f x C = g x C) -> forall C, forall_st f l C = forall_s g l C.
Proof. intros E. induction l as [|a l IH]; intros C; simpl; [reflexivity|]. rewrite E. destruct (g a C) as [[[|] C1]|]; auto. Qed.
Lemma exists_st_s {X} (f g : X -> cache -> option (bool * cache)) l : (forall x C, f x C = g x C) -> forall C, exists_st f l C = exists_s g l C.
Proof. intros E. induction l as [|a l IH]; intros C; simpl; [reflexivity|]. rewrite E. destruct (g a C) as [[[|] C1]|]; auto. Qed.

Lemma downc_eq sh A B f q S W C : downc sh A B (Datatypes.S f) q S W C =
  if in_workset W q S then Some (true, C) else
  if in_workset C q S then Some (true, C) else
  match expand_s (fun q' S' => downc sh A B f q' S' ((q, S) :: W)) A B q S (if sh then C else []) with
  | Some (true, C1) => Some (true, (q, S) :: (if sh then C1 else C))
  | Some (false, C1) => Some (false, if sh then C1 else C)
  | None => None
  end.
Proof.
  simpl. unfold expand_s, rule_s. erewrite forall_st_s; [reflexivity|]. intros r Cc. simpl.
  destruct (negb (N.eqb (par r) q)); [reflexivity|]. destruct (length (ch r)); [reflexivity|].
  apply forall_st_s. intros c Cc1. apply exists_st_s. reflexivity.
Qed.

(* scoped cache: the cache that comes back holds under the open goals whenever the one handed in did, and the answer is right *)
Lemma downc_sound A B : forall fuel q S W C,
  triple (any_order (holds (Under A B W))) C (downc false A B fuel q S W C) (fun _ => Under A B W q S) (Refuted A B q S).
Proof.
  induction fuel as [|f IH]; intros q S W C HC; [exact I|]. rewrite downc_eq.
  destruct (in_workset W q S) eqn:EW; [repeat split; [exact HC | exact (Under_hit A B W q S EW)]|].
  destruct (in_workset C q S) eqn:EC; [repeat split; [exact HC | exact (Under_trans A B W C q S HC (Under_hit A B C q S EC))]|].
  set (W' := (q, S) :: W).
  pose proof (expand_s_spec (ST:=cache) _ A B (any_order (holds (Under A B W'))) (fun q' S' _ => Under A B W' q' S') (fun _ _ _ _ _ H => H)
                (fun q' S' => IH q' S' W') q S [] (Forall_nil _)) as X.
  destruct (expand_s (fun q' S' => downc false A B f q' S' W') A B q S []) as [[[|] C1]|]; [| |exact I]; destruct X as [_ [_ Hr]].
  - assert (HU : Under A B W q S) by (apply Under_expand_cons; exact Hr).
    repeat split; [constructor; [exact HU | exact HC] | exact HU].
  - repeat split; [exact HC | exact Hr].
Qed.

Theorem downc_scoped_partial_correct A B fuel b : downc_incl false A B fuel = Some b -> (b = true <-> lincl A B).
Proof.
  unfold downc_incl. rewrite (forall_st_s _ _ _ (fun _ _ => eq_refl)).
  apply (verdict_fold _ (holds (Under A B []))); [|constructor]. intros q C. apply downc_sound.
Qed.

Corollary downc_scoped_refines A B fuel b : downc_incl false A B fuel = Some b -> b = incl_dec A B.
Proof. intros H. exact (verdict_refines A B b (downc_scoped_partial_correct A B fuel b H)). Qed.

(* one cache for the whole computation: a positive answer obtained under the hypothesis (p, {P}) outlives the refutation of (p, {P}) *)
Theorem downc_shared_refuted :
  downc_incl true trapA trapB 30 = Some true /\ ~ lincl trapA trapB /\ downc_incl false trapA trapB 30 = Some false.
Proof.
  assert (F : downc_incl false trapA trapB 30 = Some false) by (vm_compute; reflexivity).
  split; [vm_compute; reflexivity|]. split; [|exact F].
  intros L. apply (downc_scoped_partial_correct _ _ _ _ F) in L. discriminate L.
Qed.
