(* Generic greatest fixpoint by bounded refinement of a finite candidate list. *)
From Coq Require Import List Arith Lia.
Import ListNotations.
From V Require Import ListAux.
Section Gfp.
Variable X : Type.
Variable keep : list X -> X -> bool.
Hypothesis keep_mono : forall R R' x, incl R R' -> keep R x = true -> keep R' x = true.

Fixpoint refine (fuel : nat) (R : list X) : list X :=
  match fuel with
  | 0 => R
  | S f => let R' := filter (keep R) R in
           if Nat.eqb (length R') (length R) then R else refine f R'
  end.

Definition post_fixed (R : list X) := forall x, In x R -> keep R x = true.

Lemma refine_sub fuel : forall R, incl (refine fuel R) R.
Proof. induction fuel as [|f IH]; simpl; intros R; [apply incl_refl|].
  destruct (Nat.eqb _ _); [apply incl_refl|]. intros x Hx. apply (incl_filter (keep R) R), IH, Hx. Qed.

Lemma refine_fixed fuel : forall R, length R < fuel -> post_fixed (refine fuel R).
Proof.
  induction fuel as [|f IH]; simpl; intros R Hf; [lia|].
  destruct (Nat.eqb_spec (length (filter (keep R) R)) (length R)) as [E|NE].
  - intros x Hx. eapply filter_same_len; eauto.
  - apply IH. pose proof (filter_length_le (keep R) R). lia.
Qed.

Lemma refine_above (P : X -> Prop) :
  (forall R x, (forall y, P y -> In y R) -> P x -> keep R x = true) ->
  forall fuel R, (forall y, P y -> In y R) -> forall y, P y -> In y (refine fuel R).
Proof.
  intros HP. induction fuel as [|f IH]; simpl; intros R HR y Hy; auto.
  destruct (Nat.eqb _ _); auto. apply IH; auto.
  intros z Hz. apply filter_In. split; auto.
Qed.

Lemma refine_greatest fuel : forall R R', incl R' R -> post_fixed R' -> incl R' (refine fuel R).
Proof.
  intros R R' Hsub Hpf. refine (refine_above (fun x => In x R') _ fuel R Hsub).
  intros R1 x H Hx. apply (keep_mono R' R1 x H), Hpf, Hx.
Qed.

Theorem refine_gfp R0 :
  let R := refine (S (length R0)) R0 in
  incl R R0 /\ post_fixed R /\ forall R', incl R' R0 -> post_fixed R' -> incl R' R.
Proof. simpl. split; [apply (refine_sub (S (length R0)))|]. split.
  - apply (refine_fixed (S (length R0))). lia.
  - intros. apply (refine_greatest (S (length R0))); auto. Qed.
End Gfp.
