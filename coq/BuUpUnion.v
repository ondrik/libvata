(* C07 — the post-image step of CheckUpwardTreeInclusion as it was before the fix (defect D9 of DESIGN.md): for every child position
   the UNION of all macro-states known for the child state is used instead of one choice per position. The model of
   that step answers "included" on the D9 pair, the verified decider does not. *)
From Coq Require Import List NArith.
Import ListNotations.
From V Require Import Fix Sem Prod Incl AntichainUp.

Definition union_of (R : list mp) (q : N) : list N := nodup N.eq_dec (concat (lookup R q)).
Definition has_entry (R : list mp) (q : N) : bool := existsb (fun p => N.eqb (fst p) q) R.

Definition mstep_union (A B : ta) (R : list mp) : list mp :=
  flat_map (fun r => if forallb (has_entry R) (ch r)
                     then [(par r, postB B (sym r) (map (union_of R) (ch r)))] else []) (rules A).
Definition up_union_reach (A B : ta) : list mp :=
  saturate2 mp mp_eq_dec (mstep_union A B) (length (states A) + length (QB B)) [].
Definition up_union (A B : ta) : bool := forallb (pair_ok A B) (up_union_reach A B).

Definition d9_A : ta := {| rules := [ {| sym := 0; ch := []; par := 0 |}; {| sym := 1; ch := []; par := 0 |};
                                     {| sym := 3; ch := [0%N; 0%N]; par := 1 |} ]; finals := [1%N] |}.
Definition d9_B : ta := {| rules := [ {| sym := 0; ch := []; par := 1 |}; {| sym := 1; ch := []; par := 2 |};
                                     {| sym := 3; ch := [1%N; 1%N]; par := 3 |}; {| sym := 3; ch := [2%N; 2%N]; par := 3 |} ]; finals := [3%N] |}.

Theorem bu_up_union_refuted : up_union d9_A d9_B = true /\ incl_dec d9_A d9_B = false /\ up_ac d9_A d9_B = false.
Proof. vm_compute. repeat split; reflexivity. Qed.
