(* States of an automaton, the states that generate a tree ([productive], a least fixpoint), emptiness. *)
From Coq Require Import List NArith Bool.
Import ListNotations.
From V Require Import ListAux Fix Sem.

Definition states (A : ta) : list N := flat_map (fun r => par r :: ch r) (rules A) ++ finals A.

Lemma states_in A q : In q (states A) <-> (exists r, In r (rules A) /\ (q = par r \/ In q (ch r))) \/ In q (finals A).
Proof.
  unfold states. rewrite in_app_iff, in_flat_map. simpl.
  split; (intros [(r & Hr & [E|E])|H]; [left; exists r| left; exists r |right]; auto).
Qed.
Lemma rule_states B r : In r (rules B) -> In (par r) (states B) /\ forall c, In c (ch r) -> In c (states B).
Proof. intros Hr. split; [|intros c Hc]; apply states_in; left; exists r; auto. Qed.
Lemma finals_states A q : In q (finals A) -> In q (states A).
Proof. intros. apply states_in; auto. Qed.
Lemma reach_state A t q : reach A t q -> In q (states A).
Proof. intros R. inversion R; subst. apply rule_states; auto. Qed.

Definition prod_step (A : ta) (S : list N) : list N :=
  flat_map (fun r => if forallb (fun c => memN c S) (ch r) then [par r] else []) (rules A).

Definition productive (A : ta) : list N :=
  saturate N N.eq_dec (prod_step A) (S (length (states A))) [].

Lemma prod_step_in A S x : In x (prod_step A S) <-> exists r, In r (rules A) /\ (forall c, In c (ch r) -> In c S) /\ x = par r.
Proof.
  unfold prod_step. rewrite in_flat_map_if. setoid_rewrite (forallb_mem_incl memN memN_In). simpl.
  split; intros (r & Hr & Hc & H); exists r; [destruct H as [<-|[]] | subst]; auto.
Qed.

Lemma prod_step_mono A S T : incl S T -> incl (prod_step A S) (prod_step A T).
Proof. intros H x Hx. apply prod_step_in in Hx as [r [Hr [Hc ->]]]. apply prod_step_in. exists r; repeat split; auto. Qed.

Lemma prod_step_bounded A S : incl (prod_step A S) (states A).
Proof. intros x Hx. apply prod_step_in in Hx as (r & Hr & _ & ->). apply rule_states, Hr. Qed.

Lemma reach_rule A r : In r (rules A) -> (forall c, In c (ch r) -> exists t, reach A t c) -> exists t, reach A t (par r).
Proof. intros Hr Hc. destruct (Forall2_choose (reach A) (ch r) Hc) as [ts Hts]. exists (Node (sym r) ts). constructor; auto. Qed.
Definition closed (A : ta) (S : list N) := forall r, In r (rules A) -> incl (ch r) S -> In (par r) S.
Lemma reach_closed A S : closed A S -> forall t q, reach A t q -> In q S.
Proof. intros H. apply reach_ind'. intros f ts r Hr _ _ F. apply H; auto. exact (Forall2_right _ _ _ F). Qed.

Theorem productive_spec A q : In q (productive A) <-> exists t, reach A t q.
Proof.
  unfold productive. rewrite (saturate_lfp N N.eq_dec (prod_step A) (prod_step_mono A) (states A) (fun S _ => prod_step_bounded A S)).
  split.
  - intros D. induction D as [S x _ IH Hx]. apply prod_step_in in Hx as (r & Hr & Hc & ->). apply reach_rule; auto.
  - intros [t Ht]. revert t q Ht. apply reach_ind'. intros f ts r Hr _ _ IH.
    apply (der N (prod_step A) (ch r)); [apply (Forall2_right _ _ _ IH)|].
    apply prod_step_in. exists r; auto.
Qed.

Lemma productive_states A q : In q (productive A) -> In q (states A).
Proof. intros H. apply productive_spec in H as [t R]. eapply reach_state, R. Qed.

Definition is_empty (A : ta) : bool := negb (existsb (fun q => memN q (productive A)) (finals A)).
Theorem is_empty_spec A : is_empty A = true <-> forall t, ~ accepts A t.
Proof.
  unfold is_empty, accepts. rewrite negb_true_iff, <- not_true_iff_false, existsb_exists. split.
  - intros H t (q & Hq & R). apply H. exists q. rewrite memN_In, productive_spec. eauto.
  - intros H (q & Hq & Hm). apply memN_In, productive_spec in Hm as [t Ht]. apply (H t). eauto.
Qed.
Print Assumptions is_empty_spec.

Lemma nonempty_spec A : is_empty A = false <-> exists t, accepts A t.
Proof.
  split.
  - intros H. unfold is_empty in H. apply negb_false_iff in H. apply existsb_exists in H as [q [Hq Hp]].
    apply memN_In, productive_spec in Hp as [t Ht]. exists t, q; auto.
  - intros [t Ht]. destruct (is_empty A) eqn:E; auto. destruct (proj1 (is_empty_spec A) E t Ht).
Qed.
