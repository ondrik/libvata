(* C17 / C18 — proofs about the functional MTBDD model of MtbddDefs.v and MtbddOps.v: canonicity, GetValue,
   construction, apply1/2/3, projection, renaming, prefix extension and selection (pointwise meaning,
   preservation of well-formedness, apply2/apply3 as the recursion of recDescend), and the gates for
   the void functors and GetPaths. *)
From Coq Require Import List Arith Lia Bool.
From V Require Import ListAux MtbddDefs MtbddOps.
Import ListNotations.

Section DDP.
Variable V : Type.
Variable V_eq_dec : forall a b : V, {a = b} + {a <> b}.
Notation dd := (dd V).
Notation ev := (ev V).
Notation mk := (mk V V_eq_dec).

Lemma eq_dec_true u v : (if V_eq_dec u v then true else false) = true <-> u = v.
Proof. destruct (V_eq_dec u v); split; auto; discriminate. Qed.

(* variables strictly decrease from the root: the root carries the highest index *)
Definition top_lt (d : dd) (b : nat) : Prop := match d with Leaf _ => True | Nd x _ _ => x < b end.
Fixpoint wf (d : dd) : Prop :=
  match d with
  | Leaf _ => True
  | Nd x lo hi => lo <> hi /\ top_lt lo x /\ top_lt hi x /\ wf lo /\ wf hi
  end.
(* ordered only (what the pointwise theorems about prefix selection need) *)
Fixpoint ordered (d : dd) : Prop :=
  match d with
  | Leaf _ => True
  | Nd x lo hi => top_lt lo x /\ top_lt hi x /\ ordered lo /\ ordered hi
  end.
Lemma wf_ordered d : wf d -> ordered d.
Proof. induction d; simpl; tauto. Qed.

Fixpoint below (d : dd) (b : nat) : Prop :=
  match d with Leaf _ => True | Nd x lo hi => x < b /\ below lo b /\ below hi b end.
Lemma top_lt_weaken d b c : top_lt d b -> b <= c -> top_lt d c.
Proof. destruct d; simpl; auto. lia. Qed.
Lemma ordered_below d : ordered d -> forall b, top_lt d b -> below d b.
Proof.
  induction d as [v|x lo IHlo hi IHhi]; simpl; auto.
  intros [Hl [Hh [Wl Wh]]] b Hb. split; auto. split.
  - apply IHlo; auto. eapply top_lt_weaken; eauto. lia.
  - apply IHhi; auto. eapply top_lt_weaken; eauto. lia.
Qed.
Lemma below_top_lt d b : below d b -> top_lt d b.
Proof. destruct d; simpl; tauto. Qed.

Definition child_lo (d : dd) : dd := match d with Nd _ l _ => l | Leaf _ => d end.
Definition child_hi (d : dd) : dd := match d with Nd _ _ h => h | Leaf _ => d end.
Definition var_of (d : dd) : nat := match d with Nd x _ _ => x | Leaf _ => 0 end.
Lemma top_lt_var d : top_lt d (S (var_of d)).
Proof. destruct d; simpl; auto. Qed.

Definition upd (s : asg) (x : nat) (b : bool) : asg := fun y => if Nat.eqb y x then b else s y.
Lemma ev_ext d : forall s t, (forall x, s x = t x) -> ev d s = ev d t.
Proof. induction d; simpl; auto. intros s t E. rewrite (E x), (IHd1 s t E), (IHd2 s t E). reflexivity. Qed.
Lemma ev_agree_below d : forall b s t, below d b -> (forall x, x < b -> s x = t x) -> ev d s = ev d t.
Proof.
  induction d as [v|y lo IHlo hi IHhi]; simpl; auto. intros b s t [Hy [Hl Hh]] E.
  rewrite (E y Hy), (IHlo b s t Hl E), (IHhi b s t Hh E). reflexivity.
Qed.
Lemma upd_same s x b : upd s x b x = b.
Proof. unfold upd. rewrite Nat.eqb_refl. reflexivity. Qed.
Lemma upd_other s x b y : y <> x -> upd s x b y = s y.
Proof. intros N. unfold upd. destruct (Nat.eqb_spec y x); [contradiction|reflexivity]. Qed.
Lemma ev_upd_below d : forall x b s, below d x -> ev d (upd s x b) = ev d s.
Proof. intros x b s B. apply (ev_agree_below d x); auto. intros y Hy. apply upd_other. lia. Qed.

Lemma ev_mk x l h s : ev (mk x l h) s = if s x then ev h s else ev l s.
Proof. unfold MtbddDefs.mk. destruct (dd_eq_dec V V_eq_dec l h) as [->|]; simpl; auto. destruct (s x); auto. Qed.
Lemma wf_top_mk x l h n : wf l /\ top_lt l x -> wf h /\ top_lt h x -> x < n ->
  wf (mk x l h) /\ top_lt (mk x l h) n.
Proof.
  intros [Wl Tl] [Wh Th] L. assert (top_lt l n) by (apply (top_lt_weaken l x); auto; lia).
  unfold MtbddDefs.mk. destruct (dd_eq_dec V V_eq_dec l h); simpl; repeat split; auto.
Qed.

Lemma ev_at x d s : ev d s = if s x then ev (hi_at V x d) s else ev (lo_at V x d) s.
Proof.
  destruct d as [v|y l h]; simpl; [destruct (s x); reflexivity|].
  destruct (Nat.eqb_spec y x) as [->|]; simpl; destruct (s x); reflexivity.
Qed.
Lemma at_wf x d : wf d -> top_lt d (S x) ->
  (wf (lo_at V x d) /\ top_lt (lo_at V x d) x) /\ (wf (hi_at V x d) /\ top_lt (hi_at V x d) x).
Proof.
  destruct d as [v|y l h]; simpl; auto. intros (N & Tl & Th & Wl & Wh) Hy.
  destruct (Nat.eqb_spec y x); [subst; auto|]. simpl. repeat split; auto; lia.
Qed.
Lemma ev_at_upd x d s b : wf d -> top_lt d (S x) ->
  ev d (upd s x b) = ev (if b then hi_at V x d else lo_at V x d) s.
Proof.
  intros W T. destruct (at_wf x d W T) as [[Wl Tl] [Wh Th]].
  rewrite (ev_at x d), upd_same. destruct b; apply ev_upd_below, ordered_below; auto; apply wf_ordered; auto.
Qed.
Lemma at_cases x d : wf d ->
  (lo_at V x d <> hi_at V x d /\ d = Nd x (lo_at V x d) (hi_at V x d)) \/ (lo_at V x d = d /\ hi_at V x d = d).
Proof.
  destruct d as [v|y l h]; simpl; auto. intros (N & _). destruct (Nat.eqb_spec y x) as [->|]; auto.
Qed.

Lemma canonical_lt n : forall a b, wf a -> wf b -> top_lt a n -> top_lt b n -> (forall s, ev a s = ev b s) -> a = b.
Proof.
  induction n as [|x IH]; intros a b Wa Wb Ta Tb E.
  - destruct a, b; simpl in Ta, Tb; try lia. f_equal. apply (E (fun _ => false)).
  - (* the cofactors are determined by the function, and a reduced diagram by its cofactors *)
    destruct (at_wf x a Wa Ta) as [[] []], (at_wf x b Wb Tb) as [[] []].
    assert (Ec : forall c : bool, (if c then hi_at V x a else lo_at V x a) = (if c then hi_at V x b else lo_at V x b)).
    { intros c. apply IH; [destruct c; auto ..|]. intros s. rewrite <- !ev_at_upd by auto. apply E. }
    pose proof (Ec true). pose proof (Ec false).
    destruct (at_cases x a Wa) as [[]|[]], (at_cases x b Wb) as [[]|[]]; congruence.
Qed.
Theorem canonical : forall a b, wf a -> wf b -> (forall s, ev a s = ev b s) -> a = b.
Proof.
  intros a b Wa Wb. apply (canonical_lt (S (Nat.max (var_of a) (var_of b)))); auto;
    apply (top_lt_weaken _ _ _ (top_lt_var _)); lia.
Qed.

Lemma dd_eqb_eq a b : dd_eqb V V_eq_dec a b = true <-> a = b.
Proof. unfold dd_eqb. destruct (dd_eq_dec V V_eq_dec a b); split; auto; discriminate. Qed.
Theorem dd_eqb_spec a b : wf a -> wf b -> (dd_eqb V V_eq_dec a b = true <-> forall s, ev a s = ev b s).
Proof. intros Wa Wb. rewrite dd_eqb_eq. split; [intros -> s; reflexivity | apply canonical; auto]. Qed.

Definition asg_of (a : list tri) : asg := fun x => is_one (nth x a TX).
Definition refines (a : list tri) (s : asg) : Prop :=
  forall x, (nth x a TX = T1 -> s x = true) /\ (nth x a TX = T0 -> s x = false).

(* a don't-care (and a missing) position follows the low child *)
Theorem get_value_ev d a : get_value V d a = ev d (asg_of a).
Proof. induction d; simpl; auto. unfold asg_of at 1. rewrite IHd1, IHd2. reflexivity. Qed.
Lemma asg_of_refines a : refines a (asg_of a).
Proof. intros x. unfold asg_of. split; intros E; rewrite E; reflexivity. Qed.
Theorem get_value_member d a : exists s, refines a s /\ get_value V d a = ev d s.
Proof. exists (asg_of a). split; [apply asg_of_refines | apply get_value_ev]. Qed.

Lemma refinements_nth a : forall t, In t (refinements a) -> forall x, nth x t TX = nth x a TX \/ nth x a TX = TX.
Proof.
  induction a as [|h r IH]; simpl; intros t Ht x.
  - destruct Ht as [<-|[]]. auto.
  - destruct h; [| |apply in_app_or in Ht as [Ht|Ht]]; apply in_map_iff in Ht as (t' & <- & Ht');
      destruct x; simpl; auto.
Qed.
Lemma refinements_refine a t s : In t (refinements a) -> refines t s -> refines a s.
Proof.
  intros Ht R x. destruct (refinements_nth a t Ht x) as [<-| ->]; [apply R | split; discriminate].
Qed.
Lemma refinements_self a : exists t, In t (refinements a) /\ forall x, asg_of t x = asg_of a x.
Proof.
  induction a as [|h r (t & Ht & E)]; simpl.
  - exists []. auto.
  - exists ((if is_one h then T1 else T0) :: t). split.
    + destruct h; simpl; rewrite ?in_app_iff; auto using in_map.
    + intros [|x]; [destruct h; reflexivity | exact (E x)].
Qed.

Lemma dc_gate_spec d a v :
  dc_gate V V_eq_dec d a v = true <-> exists t, In t (refinements a) /\ get_value V d t = v.
Proof.
  unfold dc_gate. rewrite existsb_exists.
  split; intros (t & Ht & E); exists t; split; auto; apply eq_dec_true, E.
Qed.
Theorem dc_gate_sound d a v : dc_gate V V_eq_dec d a v = true -> exists s, refines a s /\ ev d s = v.
Proof.
  intros H. apply dc_gate_spec in H as (t & Ht & <-). exists (asg_of t). split.
  - apply (refinements_refine a t); [exact Ht | apply asg_of_refines].
  - symmetry. apply get_value_ev.
Qed.
Theorem dc_gate_model d a : dc_gate V V_eq_dec d a (get_value V d a) = true.
Proof.
  apply dc_gate_spec. destruct (refinements_self a) as (t & Ht & E). exists t. split; auto.
  rewrite !get_value_ev. apply ev_ext, E.
Qed.

(* the assignment positions i.. of asgn, read at variables i+off.., are matched by s *)
Fixpoint matches (asgn : list tri) (i off : nat) (s : asg) : bool :=
  match asgn with
  | [] => true
  | T1 :: r => s (i + off) && matches r (S i) off s
  | T0 :: r => negb (s (i + off)) && matches r (S i) off s
  | TX :: r => matches r (S i) off s
  end.

Lemma chain_ev asgn : forall i off sink proc s,
  ev (chain V asgn i off sink proc) s = if matches asgn i off s then ev proc s else ev sink s.
Proof.
  induction asgn as [|t r IH]; simpl; intros; auto.
  destruct t; rewrite IH; simpl; destruct (s (i + off)); simpl; auto; destruct (matches r (S i) off s); auto.
Qed.

Lemma chain_wf asgn : forall i off dflt proc,
  wf proc -> top_lt proc (i + off) -> proc <> Leaf dflt ->
  wf (chain V asgn i off (Leaf dflt) proc) /\ top_lt (chain V asgn i off (Leaf dflt) proc) (length asgn + (i + off)).
Proof.
  induction asgn as [|t r IH]; simpl; intros i off dflt proc W T N.
  - auto.
  - rewrite plus_n_Sm. destruct t.
    1, 2: apply IH; [simpl; repeat split; auto | simpl; lia | discriminate].
    apply IH; auto. eapply top_lt_weaken; eauto. simpl. lia.
Qed.

Lemma is_leaf_val_true d v : is_leaf_val V V_eq_dec d v = true -> d = Leaf v.
Proof. destruct d; simpl; [|discriminate]. destruct (V_eq_dec v0 v); [congruence|discriminate]. Qed.
Lemma is_leaf_val_false d v : is_leaf_val V V_eq_dec d v = false -> d <> Leaf v.
Proof. destruct d; simpl; [|discriminate]. destruct (V_eq_dec v0 v); [discriminate|congruence]. Qed.

Theorem construct_from_ev asgn node dflt off s :
  ev (construct_from V V_eq_dec asgn node dflt off) s = if matches asgn 0 off s then ev node s else dflt.
Proof.
  unfold construct_from. destruct (is_leaf_val V V_eq_dec node dflt) eqn:E.
  - apply is_leaf_val_true in E. subst. simpl. destruct (matches asgn 0 off s); reflexivity.
  - rewrite chain_ev. reflexivity.
Qed.
Theorem construct_from_wf_top asgn node dflt off : wf node -> top_lt node off ->
  wf (construct_from V V_eq_dec asgn node dflt off) /\ top_lt (construct_from V V_eq_dec asgn node dflt off) (length asgn + off).
Proof.
  intros W T. unfold construct_from. destruct (is_leaf_val V V_eq_dec node dflt) eqn:E.
  - split; auto. eapply top_lt_weaken; eauto. lia.
  - apply is_leaf_val_false in E. exact (chain_wf asgn 0 off dflt node W T E).
Qed.

(* OndriksMTBDD(asgn, value, default): value exactly on the assignments matched by asgn *)
Theorem construct_ev asgn v dflt s :
  ev (construct V V_eq_dec asgn v dflt) s = if matches asgn 0 0 s then v else dflt.
Proof. unfold construct. rewrite construct_from_ev. reflexivity. Qed.
Theorem construct_wf asgn v dflt : wf (construct V V_eq_dec asgn v dflt).
Proof. apply (construct_from_wf_top asgn (Leaf v) dflt 0); simpl; auto. Qed.
Lemma construct_top asgn v dflt : top_lt (construct V V_eq_dec asgn v dflt) (length asgn).
Proof. replace (length asgn) with (length asgn + 0) by lia. apply (construct_from_wf_top asgn (Leaf v) dflt 0); simpl; auto. Qed.

Lemma matches_refines asgn : forall i off s,
  matches asgn i off s = true <-> forall k, (nth k asgn TX = T1 -> s (k + i + off) = true) /\ (nth k asgn TX = T0 -> s (k + i + off) = false).
Proof.
  induction asgn as [|t r IH]; intros i off s; simpl.
  - split; auto. intros _ k. destruct k; split; discriminate.
  - (* head and tail of the right-hand side, once for the three shapes of the head *)
    transitivity (((t = T1 -> s (i + off) = true) /\ (t = T0 -> s (i + off) = false)) /\
                  matches r (S i) off s = true).
    + destruct t; rewrite ?andb_true_iff, ?negb_true_iff; intuition congruence.
    + rewrite IH. split.
      * intros [A B] [|k]; [exact A|]. replace (S k + i + off) with (k + S i + off) by lia. apply B.
      * intros H. split; [apply (H 0)|]. intros k. replace (k + S i + off) with (S k + i + off) by lia. apply (H (S k)).
Qed.
Lemma matches_refines0 asgn s : matches asgn 0 0 s = true <-> refines asgn s.
Proof. rewrite matches_refines. split; intros H k; generalize (H k); rewrite !Nat.add_0_r; trivial. Qed.
Corollary construct_ev_refines asgn v dflt s :
  (refines asgn s -> ev (construct V V_eq_dec asgn v dflt) s = v) /\
  (~ refines asgn s -> ev (construct V V_eq_dec asgn v dflt) s = dflt).
Proof.
  rewrite construct_ev, <- matches_refines0. destruct (matches asgn 0 0 s); split; intros H; congruence.
Qed.

Theorem extend_ev asgn off d dflt s :
  ev (extend V V_eq_dec asgn off d dflt) s = if matches asgn 0 off s then ev d s else dflt.
Proof. apply construct_from_ev. Qed.
Theorem extend_wf asgn off d dflt : wf d -> top_lt d off -> wf (extend V V_eq_dec asgn off d dflt).
Proof. intros W T. apply construct_from_wf_top; auto. Qed.
Lemma extend_top asgn off d dflt : wf d -> top_lt d off -> top_lt (extend V V_eq_dec asgn off d dflt) (length asgn + off).
Proof. intros W T. apply construct_from_wf_top; auto. Qed.

Lemma prefix_sub asgn off d : forall n, ordered d -> top_lt d n ->
  ordered (prefix V asgn off d) /\ top_lt (prefix V asgn off d) n /\ top_lt (prefix V asgn off d) off.
Proof.
  induction d as [v|x lo IHlo hi IHhi]; simpl; intros n O T; auto.
  destruct O as [Tl [Th [Ol Oh]]].
  destruct (Nat.ltb_spec x off).
  - simpl. auto.
  - destruct (is_one (nth (x - off) asgn TX)).
    + apply IHhi; auto. eapply top_lt_weaken; eauto. lia.
    + apply IHlo; auto. eapply top_lt_weaken; eauto. lia.
Qed.
Lemma prefix_wf asgn off d : wf d -> wf (prefix V asgn off d).
Proof.
  induction d as [v|x lo IHlo hi IHhi]; simpl; auto. intros W.
  destruct (x <? off); auto. destruct W as [_ [_ [_ [Wl Wh]]]].
  destruct (is_one (nth (x - off) asgn TX)); auto.
Qed.
Theorem prefix_ev asgn off d s : ordered d ->
  ev (prefix V asgn off d) s = ev d (fun x => if x <? off then s x else is_one (nth (x - off) asgn TX)).
Proof.
  induction d as [v|x lo IHlo hi IHhi]; simpl; auto. intros [Tl [Th [Ol Oh]]].
  destruct (Nat.ltb_spec x off) as [L|G].
  - assert (A : forall y, y < x -> s y = if y <? off then s y else is_one (nth (y - off) asgn TX)).
    { intros y Hy. destruct (Nat.ltb_spec y off); [reflexivity|lia]. }
    simpl. destruct (s x); [apply (ev_agree_below hi x) | apply (ev_agree_below lo x)]; auto using ordered_below.
  - destruct (is_one (nth (x - off) asgn TX)); auto.
Qed.

Theorem apply1_ev f d s : ev (apply1 V V_eq_dec f d) s = f (ev d s).
Proof. induction d; simpl; auto. rewrite ev_mk, IHd1, IHd2. destruct (s x); auto. Qed.
Lemma apply1_wf_top f d : forall n, ordered d -> top_lt d n ->
  wf (apply1 V V_eq_dec f d) /\ top_lt (apply1 V V_eq_dec f d) n.
Proof.
  induction d as [v|x lo IHlo hi IHhi]; simpl; auto. intros n (Tl & Th & Wl & Wh) Hn.
  apply wf_top_mk; auto.
Qed.
Theorem apply1_wf f d : wf d -> wf (apply1 V V_eq_dec f d).
Proof. intros W. apply (apply1_wf_top f d _ (wf_ordered d W) (top_lt_var d)). Qed.

(* the defining equation of apply2 with the local fixpoint folded back *)
Lemma apply2_eq op a b :
  apply2 V V_eq_dec op a b =
  match a, b with
  | Leaf u, Leaf v => Leaf (op u v)
  | Nd x al ah, Leaf _ => mk x (apply2 V V_eq_dec op al b) (apply2 V V_eq_dec op ah b)
  | Leaf _, Nd y bl bh => mk y (apply2 V V_eq_dec op a bl) (apply2 V V_eq_dec op a bh)
  | Nd x al ah, Nd y bl bh =>
    match Nat.compare x y with
    | Gt => mk x (apply2 V V_eq_dec op al b) (apply2 V V_eq_dec op ah b)
    | Lt => mk y (apply2 V V_eq_dec op a bl) (apply2 V V_eq_dec op a bh)
    | Eq => mk x (apply2 V V_eq_dec op al bl) (apply2 V V_eq_dec op ah bh)
    end
  end.
Proof. destruct a, b; reflexivity. Qed.

Theorem apply2_ev op a : forall b s, ev (apply2 V V_eq_dec op a b) s = op (ev a s) (ev b s).
Proof.
  induction a as [u|x al IHl ah IHh]; induction b as [v|y bl IHbl bh IHbh]; intros s; rewrite apply2_eq.
  - reflexivity.
  - rewrite ev_mk, IHbl, IHbh. simpl. destruct (s y); auto.
  - rewrite ev_mk, IHl, IHh. simpl. destruct (s x); auto.
  - destruct (Nat.compare_spec x y) as [->|L|G]; rewrite ev_mk, ?IHl, ?IHh, ?IHbl, ?IHbh; simpl.
    + destruct (s y); auto.
    + destruct (s y); auto.
    + destruct (s x); auto.
Qed.

Lemma apply2_wf_top op a : forall b n, ordered a -> ordered b -> top_lt a n -> top_lt b n ->
  wf (apply2 V V_eq_dec op a b) /\ top_lt (apply2 V V_eq_dec op a b) n.
Proof.
  induction a as [u|x al IHl ah IHh]; induction b as [v|y bl IHbl bh IHbh]; intros n Wa Wb Ta Tb;
    rewrite apply2_eq.
  - simpl. auto.
  - destruct Wb as (Tl & Th & Wl & Wh). apply wf_top_mk; auto.
  - destruct Wa as (Tl & Th & Wl & Wh). apply wf_top_mk; auto.
  - destruct (Wa) as (Tal & Tah & Wal & Wah), (Wb) as (Tbl & Tbh & Wbl & Wbh).
    destruct (Nat.compare_spec x y) as [->|L|G]; apply wf_top_mk; auto.
Qed.
Theorem apply2_wf op a b : wf a -> wf b -> wf (apply2 V V_eq_dec op a b).
Proof.
  intros Wa Wb. apply (apply2_wf_top op a b (S (Nat.max (var_of a) (var_of b)))); auto using wf_ordered;
    apply (top_lt_weaken _ _ _ (top_lt_var _)); lia.
Qed.

(* apply2 is recDescend of apply2func.hh: classifyCase2 decides which operands are branched *)
Theorem apply2_recdescend op a b :
  apply2 V V_eq_dec op a b =
  let '(b1, b2) := classify2 V a b in
  if negb b1 && negb b2
  then match a, b with Leaf u, Leaf v => Leaf (op u v) | _, _ => a end
  else let x := if b2 then var_of b else var_of a in
       mk x (apply2 V V_eq_dec op (if b1 then child_lo a else a) (if b2 then child_lo b else b))
            (apply2 V V_eq_dec op (if b1 then child_hi a else a) (if b2 then child_hi b else b)).
Proof.
  rewrite apply2_eq. destruct a as [u|x al ah]; destruct b as [v|y bl bh]; try reflexivity.
  cbn [classify2]. rewrite !Nat.leb_compare, (Nat.compare_antisym x y).
  destruct (Nat.compare_spec x y) as [->| |]; reflexivity.
Qed.

Definition top3 (a b c : dd) : option nat := omax (topv V a) (omax (topv V b) (topv V c)).
(* what classifyCase computes for the operand d when m is the maximal variable of all operands *)
Definition is_top (m : option nat) (d : dd) : bool :=
  match topv V d, m with Some x, Some y => x =? y | _, _ => false end.

Lemma omax_comm o p : omax o p = omax p o.
Proof. destruct o, p; simpl; f_equal. apply Nat.max_comm. Qed.
Lemma omax_assoc o p q : omax o (omax p q) = omax (omax o p) q.
Proof. destruct o, p, q; simpl; f_equal. apply Nat.max_assoc. Qed.
Lemma omax_some o p x : omax o p = Some x -> o = Some x \/ p = Some x.
Proof.
  destruct o as [y|], p as [z|]; simpl; auto. intros [= <-].
  destruct (Nat.max_spec y z) as [[_ ->]|[_ ->]]; auto.
Qed.
Lemma top3_swap a b c : top3 b a c = top3 a b c.
Proof. unfold top3. rewrite !omax_assoc, (omax_comm (topv V b)). reflexivity. Qed.
Lemma top3_rot a b c : top3 c a b = top3 a b c.
Proof. unfold top3. rewrite omax_comm, omax_assoc. reflexivity. Qed.

Lemma top3_some {a b c x} : top3 a b c = Some x -> topv V a = Some x \/ topv V b = Some x \/ topv V c = Some x.
Proof. intros T. apply omax_some in T as [T|T]; auto. apply omax_some in T. auto. Qed.
Lemma top3_none {a b c} : top3 a b c = None -> exists u v w, a = Leaf u /\ b = Leaf v /\ c = Leaf w.
Proof. unfold top3. destruct a, b, c; simpl; try discriminate. intros _. repeat eexists. Qed.
Lemma top3_ge {a b c x} : top3 a b c = Some x -> top_lt a (S x) /\ top_lt b (S x) /\ top_lt c (S x).
Proof. unfold top3. destruct a, b, c; simpl; intros [= <-]; lia. Qed.
Lemma top3_lt {a b c x} n : top3 a b c = Some x -> top_lt a n -> top_lt b n -> top_lt c n -> x < n.
Proof.
  intros T Ta Tb Tc.
  destruct (top3_some T) as [E|[E|E]]; [destruct a|destruct b|destruct c]; inversion E; subst; assumption.
Qed.

Lemma is_top_var x d : is_top (Some x) d = true <-> topv V d = Some x.
Proof. unfold is_top. destruct (topv V d) as [y|]; [rewrite Nat.eqb_eq|]; split; congruence. Qed.
Lemma lo_at_eq x d : lo_at V x d = if is_top (Some x) d then child_lo d else d.
Proof. destruct d; reflexivity. Qed.
Lemma hi_at_eq x d : hi_at V x d = if is_top (Some x) d then child_hi d else d.
Proof. destruct d; reflexivity. Qed.

Lemma branch_is_top a b c :
  match a with Nd x _ _ => ge_or_leaf V x b && ge_or_leaf V x c | Leaf _ => false end = is_top (top3 a b c) a.
Proof.
  unfold top3, is_top. destruct a as [u|x al ah]; [reflexivity|].
  destruct b as [v|y bl bh], c as [w|z cl ch]; simpl; apply eq_true_iff_eq;
    rewrite ?andb_true_iff, ?Nat.leb_le, Nat.eqb_eq; lia.
Qed.

(* Apply3Functor::classifyCase branches exactly the operands carrying the maximal variable, and
   recDescend hands down lo_at / hi_at of that variable *)
Theorem classify3_spec a b c :
  classify3 V a b c = (is_top (top3 a b c) a, is_top (top3 a b c) b, is_top (top3 a b c) c).
Proof.
  unfold classify3.
  rewrite (branch_is_top a b c), (branch_is_top b a c), (branch_is_top c a b), (top3_swap a b c), (top3_rot a b c).
  reflexivity.
Qed.

Theorem classify3_children a b c x : top3 a b c = Some x ->
  let '(b1, b2, b3) := classify3 V a b c in
  lo_at V x a = (if b1 then child_lo a else a) /\ hi_at V x a = (if b1 then child_hi a else a) /\
  lo_at V x b = (if b2 then child_lo b else b) /\ hi_at V x b = (if b2 then child_hi b else b) /\
  lo_at V x c = (if b3 then child_lo c else c) /\ hi_at V x c = (if b3 then child_hi c else c) /\
  (b1 || b2 || b3 = true).
Proof.
  intros T. rewrite classify3_spec, T. repeat split; try apply lo_at_eq; try apply hi_at_eq.
  destruct (top3_some T) as [E|[E|E]]; apply is_top_var in E; rewrite E, ?orb_true_r; reflexivity.
Qed.

(* the defining equation of apply3 with the local fixpoints folded back: the first operand, in the
   order a, b, c, that carries the maximal variable is branched, together with the later ones *)
Lemma apply3_eq op a b c :
  apply3 V V_eq_dec op a b c =
  let m := top3 a b c in
  if is_top m a
  then mk (var_of a) (apply3 V V_eq_dec op (child_lo a) (lo_at V (var_of a) b) (lo_at V (var_of a) c))
                     (apply3 V V_eq_dec op (child_hi a) (hi_at V (var_of a) b) (hi_at V (var_of a) c))
  else if is_top m b
  then mk (var_of b) (apply3 V V_eq_dec op a (child_lo b) (lo_at V (var_of b) c))
                     (apply3 V V_eq_dec op a (child_hi b) (hi_at V (var_of b) c))
  else match c with
       | Nd xc cl ch => mk xc (apply3 V V_eq_dec op a b cl) (apply3 V V_eq_dec op a b ch)
       | Leaf w => match a, b with Leaf u, Leaf v => Leaf (op u v w) | _, _ => Leaf w end
       end.
Proof. destruct a, b, c; reflexivity. Qed.

(* one step of Apply3Functor::recDescend: every operand whose variable is the maximum is branched *)
Lemma apply3_recdescend op a b c :
  apply3 V V_eq_dec op a b c =
  match top3 a b c with
  | None => match a, b, c with Leaf u, Leaf v, Leaf w => Leaf (op u v w) | _, _, _ => a end
  | Some x => mk x (apply3 V V_eq_dec op (lo_at V x a) (lo_at V x b) (lo_at V x c))
                   (apply3 V V_eq_dec op (hi_at V x a) (hi_at V x b) (hi_at V x c))
  end.
Proof.
  rewrite apply3_eq. destruct (top3 a b c) as [x|] eqn:T; cbv zeta.
  - (* an operand passed over is not at x, so lo_at / hi_at leave it alone *)
    rewrite (lo_at_eq x a), (hi_at_eq x a). destruct (is_top (Some x) a) eqn:Ea.
    { apply is_top_var in Ea. destruct a; inversion Ea. reflexivity. }
    rewrite (lo_at_eq x b), (hi_at_eq x b). destruct (is_top (Some x) b) eqn:Eb.
    { apply is_top_var in Eb. destruct b; inversion Eb. reflexivity. }
    rewrite (lo_at_eq x c), (hi_at_eq x c).
    destruct (top3_some T) as [E|[E|E]]; apply is_top_var in E; try congruence.
    rewrite E. apply is_top_var in E. destruct c; inversion E. reflexivity.
  - destruct (top3_none T) as (u & v & w & -> & -> & ->). reflexivity.
Qed.

Lemma at_size x d : size_dd V (lo_at V x d) <= size_dd V d /\ size_dd V (hi_at V x d) <= size_dd V d.
Proof. destruct d; simpl; auto. destruct (x0 =? x); simpl; lia. Qed.
Lemma at_size_top x d : topv V d = Some x ->
  size_dd V (lo_at V x d) < size_dd V d /\ size_dd V (hi_at V x d) < size_dd V d.
Proof. destruct d; simpl; [discriminate|]. intros [= ->]. rewrite Nat.eqb_refl. lia. Qed.

Lemma apply3_ind op (P : dd -> dd -> dd -> dd -> Prop) :
  (forall u v w, P (Leaf u) (Leaf v) (Leaf w) (Leaf (op u v w))) ->
  (forall a b c x l h, top3 a b c = Some x ->
     P (lo_at V x a) (lo_at V x b) (lo_at V x c) l -> P (hi_at V x a) (hi_at V x b) (hi_at V x c) h ->
     P a b c (mk x l h)) ->
  forall a b c, P a b c (apply3 V V_eq_dec op a b c).
Proof.
  intros HL HN a b c.
  remember (size_dd V a + size_dd V b + size_dd V c) as k eqn:Hk. revert a b c Hk.
  induction k as [k IH] using lt_wf_ind. intros a b c ->.
  rewrite apply3_recdescend. destruct (top3 a b c) as [x|] eqn:T.
  - pose proof (at_size x a). pose proof (at_size x b). pose proof (at_size x c).
    apply HN; auto; eapply IH; eauto;
      destruct (top3_some T) as [E|[E|E]]; pose proof (at_size_top x _ E); lia.
  - destruct (top3_none T) as (u & v & w & -> & -> & ->). apply HL.
Qed.

Theorem apply3_ev op a b c s : ev (apply3 V V_eq_dec op a b c) s = op (ev a s) (ev b s) (ev c s).
Proof.
  apply (apply3_ind op (fun a b c r => ev r s = op (ev a s) (ev b s) (ev c s))); [reflexivity|].
  intros a' b' c' x l h _ El Eh.
  rewrite ev_mk, El, Eh, (ev_at x a'), (ev_at x b'), (ev_at x c'). destruct (s x); reflexivity.
Qed.

Lemma apply3_wf_top op a b c : forall n, wf a -> wf b -> wf c -> top_lt a n -> top_lt b n -> top_lt c n ->
  wf (apply3 V V_eq_dec op a b c) /\ top_lt (apply3 V V_eq_dec op a b c) n.
Proof.
  apply (apply3_ind op (fun a b c r => forall n, wf a -> wf b -> wf c -> top_lt a n -> top_lt b n -> top_lt c n ->
                                       wf r /\ top_lt r n)); [simpl; auto|].
  intros a' b' c' x l h T IHl IHh n Wa Wb Wc Ta Tb Tc.
  destruct (top3_ge T) as (Ga & Gb & Gc).
  destruct (at_wf x a' Wa Ga) as [[] []], (at_wf x b' Wb Gb) as [[] []], (at_wf x c' Wc Gc) as [[] []].
  apply wf_top_mk; [apply IHl | apply IHh | apply (top3_lt n T)]; auto.
Qed.
Theorem apply3_wf op a b c : wf a -> wf b -> wf c -> wf (apply3 V V_eq_dec op a b c).
Proof.
  intros Wa Wb Wc.
  apply (apply3_wf_top op a b c (S (Nat.max (var_of a) (Nat.max (var_of b) (var_of c))))); auto;
    apply (top_lt_weaken _ _ _ (top_lt_var _)); lia.
Qed.
Lemma apply3_top op a b c n : wf a -> wf b -> wf c -> top_lt a n -> top_lt b n -> top_lt c n ->
  top_lt (apply3 V V_eq_dec op a b c) n.
Proof. intros. apply apply3_wf_top; auto. Qed.

Lemma project_wf_top pred op d : forall n, ordered d -> top_lt d n ->
  wf (project V V_eq_dec pred op d) /\ top_lt (project V V_eq_dec pred op d) n.
Proof.
  induction d as [v|x lo IHlo hi IHhi]; simpl; auto. intros n (Tl & Th & Wl & Wh) Hn.
  destruct (IHlo x Wl Tl) as [A1 A2], (IHhi x Wh Th) as [B1 B2]. destruct (pred x).
  - apply apply2_wf_top; auto using wf_ordered; [apply (top_lt_weaken _ x) | apply (top_lt_weaken _ x)]; auto; lia.
  - apply wf_top_mk; auto.
Qed.
Theorem project_wf pred op d : wf d -> wf (project V V_eq_dec pred op d).
Proof. intros W. apply (project_wf_top pred op d _ (wf_ordered d W) (top_lt_var d)). Qed.

(* meaning of Project in terms of the diagram (always): a removed node combines its children *)
Fixpoint pev (pred : nat -> bool) (op : V -> V -> V) (d : dd) (s : asg) : V :=
  match d with
  | Leaf v => v
  | Nd x lo hi => if pred x then op (pev pred op lo s) (pev pred op hi s)
                  else if s x then pev pred op hi s else pev pred op lo s
  end.
Theorem project_ev_struct pred op d s : ev (project V V_eq_dec pred op d) s = pev pred op d s.
Proof.
  induction d as [v|x lo IHlo hi IHhi]; simpl; auto.
  destruct (pred x).
  - rewrite apply2_ev, IHlo, IHhi. reflexivity.
  - rewrite ev_mk, IHlo, IHhi. reflexivity.
Qed.
(* meaning of Project as a function, for one removed variable and an idempotent leaf operation
   (a reduced diagram skips a variable its function does not depend on, so op v v = v is needed):
   the two cofactors with respect to x are combined *)
Theorem project_ev_var op x d s : ordered d -> (forall v, op v v = v) ->
  ev (project V V_eq_dec (fun y => y =? x) op d) s = op (ev d (upd s x false)) (ev d (upd s x true)).
Proof.
  intros O Idem. rewrite project_ev_struct. induction d as [v|y lo IHlo hi IHhi]; [simpl; auto|].
  destruct O as (Tl & Th & Ol & Oh). cbn [pev ev]. rewrite (IHlo Ol), (IHhi Oh).
  destruct (Nat.eqb_spec y x) as [->|N].
  - rewrite !upd_same, !ev_upd_below, !Idem by (apply ordered_below; auto). reflexivity.
  - rewrite !upd_other by auto. destruct (s y); reflexivity.
Qed.
Theorem project_ev_indep pred op d s t : (forall x, pred x = false -> s x = t x) ->
  ev (project V V_eq_dec pred op d) s = ev (project V V_eq_dec pred op d) t.
Proof.
  intros E. rewrite !project_ev_struct. induction d as [v|x lo IHlo hi IHhi]; simpl; auto.
  destruct (pred x) eqn:P; [congruence|]. rewrite (E x P), IHlo, IHhi. reflexivity.
Qed.

Theorem rename_ev rho d s : ev (rename V rho d) s = ev d (fun x => s (rho x)).
Proof. induction d; simpl; auto. rewrite IHd1, IHd2. reflexivity. Qed.
Lemma rename_inj rho : (forall x y, rho x = rho y -> x = y) -> forall a b, rename V rho a = rename V rho b -> a = b.
Proof.
  intros Inj. induction a as [u|x al IHl ah IHh]; destruct b as [v|y bl bh]; simpl; try discriminate.
  - congruence.
  - intros [= E1 E2 E3]. f_equal; auto.
Qed.
Theorem rename_wf rho d : (forall x y, x < y -> rho x < rho y) -> wf d -> wf (rename V rho d).
Proof.
  intros Mono.
  assert (Inj : forall x y, rho x = rho y -> x = y).
  { intros x y E. destruct (lt_eq_lt_dec x y) as [[L|Q]|G]; auto; [apply Mono in L|apply Mono in G]; lia. }
  induction d as [v|x lo IHlo hi IHhi]; simpl; auto. intros [N [Tl [Th [Wl Wh]]]].
  repeat split; auto.
  - intros E. apply N. eapply rename_inj; eauto.
  - destruct lo; simpl in *; auto.
  - destruct hi; simpl in *; auto.
Qed.

(* the traversing functors are shown the leaves: exactly the values the function takes *)
Theorem leaves_ev d : ordered d -> forall v, In v (leaves V d) <-> exists s, ev d s = v.
Proof.
  induction d as [u|x l IHl h IHh]; simpl; intros O v.
  - split; [intros [->|[]]; exists (fun _ => false); reflexivity | intros [_ ->]; auto].
  - destruct O as [Tl [Th [Ol Oh]]]. rewrite in_app_iff, (IHl Ol), (IHh Oh). split.
    + intros [[s <-]|[s <-]]; [exists (upd s x false) | exists (upd s x true)];
        rewrite upd_same; apply ev_upd_below, ordered_below; auto.
    + intros [s E]. destruct (s x); eauto.
Qed.
Lemma memb_spec v l : memb V V_eq_dec v l = true <-> In v l.
Proof. apply (existsb_eqb (fun v u => if V_eq_dec u v then true else false)). intros x y. rewrite eq_dec_true. split; auto. Qed.
Theorem same_set_spec a b : same_set V V_eq_dec a b = true <-> forall v, In v a <-> In v b.
Proof.
  unfold same_set. rewrite andb_true_iff, !(forallb_mem_incl _ memb_spec). split.
  - intros [A B] v. split; auto.
  - intros H. split; intros v; apply H.
Qed.
Corollary void1_gate seen d : ordered d ->
  (same_set V V_eq_dec seen (leaves V d) = true <-> forall v, In v seen <-> exists s, ev d s = v).
Proof.
  intros O. rewrite same_set_spec. split; intros H v; rewrite (H v); [|symmetry]; apply leaves_ev, O.
Qed.
Corollary void2_gate op seen a b : wf a -> wf b ->
  (same_set V V_eq_dec seen (leaves V (apply2 V V_eq_dec op a b)) = true <->
   forall p, In p seen <-> exists s, op (ev a s) (ev b s) = p).
Proof.
  intros Wa Wb. rewrite (void1_gate seen _ (wf_ordered _ (apply2_wf op a b Wa Wb))).
  split; intros H p; rewrite (H p); split; intros [s E]; exists s; rewrite apply2_ev in *; auto.
Qed.

Lemma nth_set_nth_eq a : forall i t, nth i (set_nth a i t) TX = t.
Proof. induction a; induction i; simpl; auto. Qed.
Lemma nth_set_nth_neq i : forall a j t, i <> j -> nth j (set_nth a i t) TX = nth j a TX.
Proof.
  induction i as [|i IH]; intros [|h r] [|j] t N; simpl; try lia; rewrite ?IH by lia; auto; destruct j; auto.
Qed.
Lemma paths_rec_sound d : forall a n, ordered d -> top_lt d n ->
  forall p v, In (p, v) (paths_rec V a d) ->
  (forall x, n <= x -> nth x p TX = nth x a TX) /\ (forall s, refines p s -> ev d s = v).
Proof.
  induction d as [u|x lo IHlo hi IHhi]; simpl; intros a n O T p v H.
  - destruct H as [[= <- <-]|[]]. auto.
  - destruct O as (Tl & Th & Ol & Oh). apply in_app_or in H as [H|H].
    + destruct (IHlo _ x Ol Tl p v H) as [A B]. split.
      * intros y Hy. rewrite A by lia. apply nth_set_nth_neq. lia.
      * intros s R. rewrite (proj2 (R x)); [apply B, R|]. rewrite A by lia. apply nth_set_nth_eq.
    + destruct (IHhi _ x Oh Th p v H) as [A B]. split.
      * intros y Hy. rewrite A by lia. apply nth_set_nth_neq. lia.
      * intros s R. rewrite (proj1 (R x)); [apply B, R|]. rewrite A by lia. apply nth_set_nth_eq.
Qed.
Theorem paths_sound d : ordered d -> forall p v, In (p, v) (paths V d) -> forall s, refines p s -> ev d s = v.
Proof. intros O p v H. apply (paths_rec_sound d [] _ O (top_lt_var d) p v H). Qed.

End DDP.

Lemma example_dd :
  let a := construct nat Nat.eq_dec [T1; TX] 1 0 in
  let b := construct nat Nat.eq_dec [TX; T1] 2 0 in
  let c := apply2 nat Nat.eq_dec Nat.add a b in
  wf nat c /\ c = Nd 1 (Nd 0 (Leaf 0) (Leaf 1)) (Nd 0 (Leaf 2) (Leaf 3)) /\
  apply2 nat Nat.eq_dec Nat.add b a = c /\ get_value nat c [TX; T1] = 2.
Proof. vm_compute. repeat split; auto; discriminate. Qed.
