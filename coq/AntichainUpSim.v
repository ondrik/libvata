(* C01, algorithm-level model — upward inclusion WITH a simulation preorder (src/explicit_tree_incl_up.cc called with a relation): the relation
   is used (i) to keep macro-states small — a state is not added to a macro-state that already holds a state above it, and states below
   a new one are removed (`post.contains(ind.at(s))`, `post.refine(inv.at(s))`) — and (ii) to compare macro-states when a popped pair is
   tested against the processed ones (`lte`: every state of the stored macro-state is below some state of the new one). Modelled here:
   (i) and (ii) for pairs with the same state of the smaller automaton; the two further prunings that compare states of the SMALLER
   automaton through the relation on the union automaton (`checkIntersection(ind.at(q), P)` and q <= q' in `contains`) are not modelled.
   Hypothesis on the relation (what an upward simulation induced by the identity gives, and what the identity relation satisfies):
   reflexive, transitive, final states are upward closed, and a rule can be replayed with one child replaced by a larger one, reaching a
   larger parent. Theorem: a run that ends returns the decider's verdict, for every fuel.
   At the end: a relation to run the model with (`upsim_gfp`, computed with Gfp.refine) and the run that uses it only after
   checking the hypothesis (`up_sim_model`). *)
From Coq Require Import List NArith Bool Arith Lia.
Import ListNotations.
From V Require Import ListAux Gfp Sem Prod Incl AntichainUp AntichainUpW.

Section UpSim.
Variable le : N -> N -> bool.

(* macro-states kept minimal: maximal elements only, one representative of equivalent states *)
Definition ins_min (M : list N) (p : N) : list N :=
  if existsb (fun m => le p m) M then M else p :: filter (fun m => negb (le m p)) M.
Definition minimize (S : list N) : list N := fold_left ins_min S [].
Definition mstep_min (A B : ta) (R : list mp) : list mp :=
  flat_map (fun r => map (fun Ss => (par r, minimize (postB B (sym r) Ss))) (choices R (ch r))) (rules A).

Definition belowb (X Y : list N) : bool := forallb (fun x => existsb (fun y => le x y) Y) X.
Definition subsumes_le (x y : mp) : bool := N.eqb (fst x) (fst y) && belowb (snd x) (snd y).
Definition covered_le (R : list mp) (y : mp) : bool := existsb (fun x => subsumes_le x y) R.

Fixpoint upws (A B : ta) (fuel : nat) (P W : list mp) : option bool :=
  match fuel with
  | 0 => None
  | S f =>
      match W with
      | [] => Some true
      | x :: W' =>
          if covered_le P x then upws A B f P W'
          else if negb (pair_ok A B x) then Some false
          else let Pf := filter (fun y => negb (subsumes_le x y)) P in
               let P' := x :: Pf in
               let nw := filter (fun y => negb (memMP y (mstep_min A B Pf))) (mstep_min A B P') in
               upws A B f P' (W' ++ nw)
      end
  end.
Definition up_worklist_sim (A B : ta) (fuel : nat) : option bool := upws A B fuel [] (mstep_min A B []).

Fixpoint replace_at (cs : list N) (i : nat) (c : N) : list N :=
  match cs, i with [] , _ => [] | _ :: t, 0 => c :: t | y :: t, S j => y :: replace_at t j c end.
Definition upsim_b (B : ta) : bool :=
  let Q := QB B in
  forallb (fun p => le p p) Q &&
  forallb (fun p => forallb (fun q => forallb (fun r => implb (le p q && le q r) (le p r)) Q) Q) Q &&
  forallb (fun p => forallb (fun q => implb (le p q && memN p (finals B)) (memN q (finals B))) Q) Q &&
  forallb (fun r => forallb (fun i => forallb (fun c' =>
      implb (le (nth i (ch r) 0%N) c')
            (existsb (fun r' => N.eqb (sym r') (sym r) && (if list_eq_dec N.eq_dec (ch r') (replace_at (ch r) i c') then true else false) && le (par r) (par r')) (rules B)))
    Q) (seq 0 (length (ch r)))) (rules B).

Variable B : ta.
Definition inB (q : N) : Prop := In q (states B).
Definition allB (X : list N) : Prop := forall x, In x X -> inB x.
Definition below (X Y : list N) : Prop := forall x, In x X -> exists y, In y Y /\ le x y = true.

Definition UpSim : Prop :=
  (forall p, inB p -> le p p = true) /\
  (forall p q r, inB p -> inB q -> inB r -> le p q = true -> le q r = true -> le p r = true) /\
  (forall p q, inB p -> inB q -> le p q = true -> In p (finals B) -> In q (finals B)) /\
  (forall r pre c suf c', In r (rules B) -> ch r = pre ++ c :: suf -> inB c' -> le c c' = true ->
     exists r', In r' (rules B) /\ sym r' = sym r /\ ch r' = pre ++ c' :: suf /\ le (par r) (par r') = true).
Hypothesis HU : UpSim.

Lemma belowb_spec X Y : belowb X Y = true <-> below X Y.
Proof. unfold belowb, below. rewrite forallb_forall. split; intros H x Hx; apply existsb_exists, H, Hx. Qed.
Lemma subsumes_le_spec x y : subsumes_le x y = true <-> subsumes below x y.
Proof. unfold subsumes_le, subsumes. rewrite andb_true_iff, N.eqb_eq, belowb_spec. tauto. Qed.
Lemma covered_le_spec R y : covered_le R y = true <-> Cov below R y.
Proof. unfold covered_le. rewrite existsb_exists. split; intros [x [Hx H]]; exists x; split; auto; apply subsumes_le_spec, H. Qed.

Lemma below_incl X Y : allB X -> incl X Y -> below X Y.
Proof. destruct HU as [R _]. intros H I x Hx. exists x. split; auto. Qed.

Definition belowB (X Y : list N) : Prop := allB X /\ allB Y /\ below X Y.
Lemma belowB_trans X Y Z : belowB X Y -> belowB Y Z -> belowB X Z.
Proof.
  destruct HU as [_ [T _]]. intros [HX [HY H1]] [_ [HZ H2]]. split; [|split]; auto.
  intros x Hx. destruct (H1 x Hx) as [y [Hy L1]]. destruct (H2 y Hy) as [z [Hz L2]].
  exists z. split; auto. apply (T x y z); auto.
Qed.

Lemma ins_min_sub M p : incl (ins_min M p) (p :: M).
Proof.
  unfold ins_min. destruct (existsb _ M); intros x Hx; [right; auto|]. destruct Hx as [<-|Hx]; [left; auto|].
  apply filter_In in Hx. right. tauto.
Qed.
Lemma ins_min_cover M p : allB (p :: M) -> belowB (p :: M) (ins_min M p).
Proof.
  destruct HU as [R _]. intros HM. split; [exact HM | split; [intros x Hx; apply HM, ins_min_sub, Hx|]].
  intros s Hs. pose proof (R s (HM s Hs)) as Rs. unfold ins_min. destruct (existsb (fun m => le p m) M) eqn:E.
  - apply existsb_exists in E as [m0 [Hm0 L]]. destruct Hs as [<-|Hs]; [exists m0; auto | exists s; auto].
  - destruct Hs as [<-|Hs]; [exists p; split; [left|]; auto|].
    destruct (le s p) eqn:Es; [exists p; split; [left|]; auto|].
    exists s. split; [|exact Rs]. right. apply filter_In. split; auto. rewrite Es. reflexivity.
Qed.
Lemma minimize_snoc S p : minimize (S ++ [p]) = ins_min (minimize S) p.
Proof. unfold minimize. rewrite fold_left_app. reflexivity. Qed.
Lemma minimize_sub S : incl (minimize S) S.
Proof.
  induction S as [|p S IH] using rev_ind; [apply incl_refl|]. rewrite minimize_snoc.
  intros x Hx. apply ins_min_sub in Hx as [<-|Hx]; [apply in_elt | apply in_or_app; left; exact (IH x Hx)].
Qed.
Lemma minimize_cover S : allB S -> belowB S (minimize S).
Proof.
  induction S as [|p S IH] using rev_ind; intros HS; [split; [|split]; intros x []|].
  destruct (IH (fun x Hx => HS x (in_or_app _ _ _ (or_introl Hx)))) as [_ [HM IHb]].
  assert (HM' : allB (p :: minimize S)) by (intros x [<-|Hx]; [apply HS, in_elt | exact (HM x Hx)]).
  rewrite minimize_snoc. apply (belowB_trans _ (p :: minimize S)); [|exact (ins_min_cover _ p HM')].
  split; [exact HS | split; [exact HM'|]]. intros s Hs. apply in_app_or in Hs as [Hs|[<-|[]]].
  - destruct (IHb s Hs) as [m [Hm L]]. exists m. split; [right|]; auto.
  - destruct HU as [R _]. exists p. split; [left; reflexivity | exact (R p (HM' p (or_introl eq_refl)))].
Qed.

Lemma postB_allB f Ss : allB (postB B f Ss).
Proof. intros x Hx. apply postB_in in Hx. apply Hx. Qed.

Lemma par_inB r : In r (rules B) -> inB (par r).
Proof. intros H. apply (proj1 (rule_states B r H)). Qed.

Lemma replay_all : forall suf suf', Forall2 (fun c c' => le c c' = true /\ inB c') suf suf' ->
  forall pre r, In r (rules B) -> ch r = pre ++ suf ->
  exists r', In r' (rules B) /\ sym r' = sym r /\ ch r' = pre ++ suf' /\ le (par r) (par r') = true.
Proof.
  destruct HU as [R [T [_ U]]].
  induction 1 as [|c c' t t' [L Hc'] F IH]; intros pre r Hr E.
  - exists r. split; [exact Hr|]. split; [reflexivity|]. split; [exact E|]. apply R. apply par_inB; auto.
  - destruct (U r pre c t c' Hr E Hc' L) as [r1 [Hr1 [S1 [C1 L1]]]].
    destruct (IH (pre ++ [c']) r1 Hr1) as [r' [Hr' [S' [C' L']]]]; [rewrite <- app_assoc; exact C1|].
    exists r'. split; auto. split; [congruence|]. split; [rewrite <- app_assoc in C'; exact C'|].
    apply (T (par r) (par r1) (par r')); auto; apply par_inB; auto.
Qed.

Lemma postB_below f Ss Ms : Forall2 belowB Ss Ms -> belowB (postB B f Ss) (postB B f Ms).
Proof.
  intros F. split; [apply postB_allB | split; [apply postB_allB|]].
  intros s Hs. apply postB_in in Hs as [_ [r [Hr [E1 [FI E2]]]]].
  (* choose, for every child of the rule, a larger state in the larger macro-state, and replay the rule with these *)
  destruct (Forall2_factor _ (fun c m => le c m = true /\ inB m) (fun m M => In m M) _ _ (Forall2_compose _ _ _ _ _ FI F))
    as [ms [F1 F2]].
  { intros c M [S [Hc [_ [HM HB]]]]. destruct (HB c Hc) as [m [Hm L]]. exists m. auto. }
  destruct (replay_all (ch r) ms F1 [] r Hr eq_refl) as [r' [Hr' [S' [C' L']]]]. simpl in C'.
  exists (par r'). split; [|rewrite <- E2; exact L'].
  apply postB_in. split; [apply par_inB; auto|]. exists r'. repeat split; auto; [congruence | rewrite C'; exact F2].
Qed.

Definition post_min (f : N) (Ss : list (list N)) : list N := minimize (postB B f Ss).
Lemma mstep_min_gstep A R : mstep_min A B R = gstep A post_min R.
Proof. reflexivity. Qed.

Lemma upto_below : UpTo B belowB post_min.
Proof.
  assert (V : forall S, allB S -> belowB (minimize S) S).
  { intros S H. destruct (minimize_cover S H) as [_ [H' _]]. split; [exact H' | split; [exact H | apply below_incl; [exact H' | apply minimize_sub]]]. }
  split.
  - intros X Y [_ [HY _]]. split; [|split]; auto. apply below_incl; [exact HY | apply incl_refl].
  - exact belowB_trans.
  - intros f Ms Ss F. exact (belowB_trans _ _ _ (V _ (postB_allB f Ms)) (postB_below f Ms Ss F)).
  - intros f Ss Ms F. exact (belowB_trans _ _ _ (postB_below f Ss Ms F) (minimize_cover _ (postB_allB f Ms))).
  - destruct HU as [_ [_ [Fi _]]]. intros X Y [HX [HY HB]] H.
    apply existsb_exists in H as [p [Hp Hf]]. destruct (HB p Hp) as [y [Hy L]]. apply existsb_exists. exists y. split; auto.
    apply memN_In. apply (Fi p y); auto. apply memN_In; auto.
Qed.

Lemma upws_wl A : forall fuel P W, upws A B fuel P W = wl A B post_min subsumes_le fuel P W.
Proof.
  induction fuel as [|f IH]; intros P W; simpl; [reflexivity|].
  destruct W as [|x W']; [reflexivity|]. rewrite !IH, !mstep_min_gstep. reflexivity.
Qed.

Theorem up_worklist_sim_refines A fuel b : up_worklist_sim A B fuel = Some b -> b = incl_dec A B.
Proof.
  unfold up_worklist_sim. rewrite upws_wl, mstep_min_gstep. apply (wl_refines A B _ _ upto_below).
  intros x y [_ [Hx _]] [_ [Hy _]] H. apply subsumes_le_spec in H as [E H]. split; [exact E | split; auto].
Qed.
End UpSim.

Lemma upsim_identity B : UpSim N.eqb B.
Proof.
  split; [|split; [|split]].
  - intros p _. apply N.eqb_refl.
  - intros p q r _ _ _ H1 H2. apply N.eqb_eq in H1, H2. subst. apply N.eqb_refl.
  - intros p q _ _ H. apply N.eqb_eq in H. subst. auto.
  - intros r pre c suf c' Hr E _ H. apply N.eqb_eq in H. subst c'. exists r. repeat split; auto. apply N.eqb_refl.
Qed.
Theorem up_worklist_sim_identity A B fuel b : up_worklist_sim N.eqb A B fuel = Some b -> b = incl_dec A B.
Proof. apply up_worklist_sim_refines, upsim_identity. Qed.
Theorem up_worklist_sim_exact le A B fuel b : UpSim le B -> up_worklist_sim le A B fuel = Some b -> (b = true <-> lincl A B).
Proof. intros HU H. rewrite (up_worklist_sim_refines le B HU A fuel b H). apply incl_dec_spec. Qed.

Lemma replace_at_middle (pre : list N) c suf c' : replace_at (pre ++ c :: suf) (length pre) c' = pre ++ c' :: suf.
Proof. induction pre as [|x pre IH]; simpl; auto. rewrite IH. reflexivity. Qed.
Lemma forallb_QB B (f : N -> bool) : forallb f (QB B) = true -> forall p, In p (states B) -> f p = true.
Proof. intros H p Hp. exact (proj1 (forallb_forall f (QB B)) H p (proj2 (QB_in B p) Hp)). Qed.
Lemma upsim_b_sound le B : upsim_b le B = true -> UpSim le B.
Proof.
  unfold upsim_b. intros H. apply andb_true_iff in H as [H HU]. apply andb_true_iff in H as [H HF]. apply andb_true_iff in H as [HR HT].
  split; [|split; [|split]].
  - exact (forallb_QB B _ HR).
  - intros p q r Hp Hq Hr L1 L2. pose proof (forallb_QB B _ (forallb_QB B _ (forallb_QB B _ HT p Hp) q Hq) r Hr) as H.
    cbv beta in H. rewrite L1, L2 in H. exact H.
  - intros p q Hp Hq L Hf. pose proof (forallb_QB B _ (forallb_QB B _ HF p Hp) q Hq) as H.
    cbv beta in H. apply memN_In in Hf. rewrite L, Hf in H. apply memN_In, H.
  - intros r pre c suf c' Hr E Hc' L.
    assert (Hi : In (length pre) (seq 0 (length (ch r)))) by (apply in_seq; rewrite E, app_length; simpl; lia).
    assert (Hn : nth (length pre) (ch r) 0%N = c) by (rewrite E; apply nth_middle).
    pose proof (forallb_QB B _ (proj1 (forallb_forall _ _) (proj1 (forallb_forall _ _) HU r Hr) _ Hi) c' Hc') as H.
    cbv beta in H. rewrite Hn, L in H.
    apply existsb_exists in H as [r' [Hr' H]]. apply andb_true_iff in H as [H H3]. apply andb_true_iff in H as [H1 H2].
    exists r'. split; auto. split; [apply N.eqb_eq; auto|]. split; auto.
    destruct (list_eq_dec N.eq_dec (ch r') (replace_at (ch r) (length pre) c')) as [Eq|]; [|discriminate].
    rewrite Eq, E. apply replace_at_middle.
Qed.

Definition us_le (p q : N) : bool := N.eqb p q || (N.eqb p 1 && N.eqb q 2).
Definition us_B : ta := {| rules := [ {| sym := 0; ch := []; par := 1 |}; {| sym := 1; ch := []; par := 2 |};
                                      {| sym := 2; ch := [1%N]; par := 3 |}; {| sym := 2; ch := [2%N]; par := 3 |} ]; finals := [3%N] |}.
Definition us_A : ta := {| rules := [ {| sym := 0; ch := []; par := 0 |}; {| sym := 1; ch := []; par := 0 |}; {| sym := 2; ch := [0%N]; par := 5 |} ]; finals := [5%N] |}.
Definition us_A2 : ta := {| rules := {| sym := 3; ch := []; par := 5 |} :: rules us_A; finals := [5%N] |}.
Example upsim_example : UpSim us_le us_B /\ us_le 1 2 = true /\ us_le 2 1 = false /\
  up_worklist_sim us_le us_A us_B 20 = Some true /\ up_worklist_sim us_le us_A2 us_B 20 = Some false /\
  minimize us_le [1; 2]%N = [2%N].
Proof. split; [apply upsim_b_sound; vm_compute; reflexivity|]. vm_compute. repeat split; reflexivity. Qed.

Definition rel_le (R : list (N * N)) (p q : N) : bool := N.eqb p q || existsb (fun x => N.eqb (fst x) p && N.eqb (snd x) q) R.
Definition list_eqb (a b : list N) : bool := if list_eq_dec N.eq_dec a b then true else false.
Definition up_keep (B : ta) (R : list (N * N)) (x : N * N) : bool :=
  implb (memN (fst x) (finals B)) (memN (snd x) (finals B)) &&
  forallb (fun r => forallb (fun i => implb (N.eqb (nth i (ch r) 0%N) (fst x))
      (existsb (fun r' => N.eqb (sym r') (sym r) && list_eqb (ch r') (replace_at (ch r) i (snd x)) && rel_le R (par r) (par r')) (rules B)))
    (seq 0 (length (ch r)))) (rules B).
Definition upsim_gfp (B : ta) : list (N * N) :=
  let all := list_prod (QB B) (QB B) in refine (N * N) (up_keep B) (S (length all)) all.
Definition up_sim_model (fuel : nat) (A B : ta) : option bool :=
  let le := rel_le (upsim_gfp B) in if upsim_b le B then up_worklist_sim le A B fuel else None.
Theorem up_sim_model_refines fuel A B b : up_sim_model fuel A B = Some b -> b = incl_dec A B.
Proof.
  unfold up_sim_model. destruct (upsim_b (rel_le (upsim_gfp B)) B) eqn:E; [|discriminate].
  apply up_worklist_sim_refines. apply upsim_b_sound. exact E.
Qed.
Example up_sim_model_example :
  up_sim_model 20 us_A us_B = Some true /\ up_sim_model 20 us_A2 us_B = Some false /\
  existsb (fun x => negb (N.eqb (fst x) (snd x))) (upsim_gfp us_B) = true.
Proof. vm_compute. repeat split; reflexivity. Qed.
