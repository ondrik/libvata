(* C01 / C07, algorithm-level model — upward inclusion as the code runs it (src/explicit_tree_incl_up.cc): a work list `next` of macro
   pairs and an antichain `processed`; a pair popped from the work list is skipped when a processed pair subsumes it (`contains`),
   otherwise it is tested for acceptance (a final state of A paired with a macro-state without final state of B ends the run with
   "not included"), the processed pairs it subsumes are deleted (`refine` — the step AntichainUp.v left out), and the consequences
   that the new pair adds are scheduled. Fuel-indexed; None = out of fuel. Theorem: a run that ends returns the verdict of the
   verified decider, for every fuel. *)
From Coq Require Import List NArith Arith.
Import ListNotations.
From V Require Import Sem Incl AntichainUp.

Definition memMP (x : mp) (l : list mp) : bool := existsb (fun y => if mp_eq_dec x y then true else false) l.

Fixpoint upw (A B : ta) (fuel : nat) (P W : list mp) : option bool :=
  match fuel with
  | 0 => None
  | S f =>
      match W with
      | [] => Some true
      | x :: W' =>
          if covered P x then upw A B f P W'
          else if negb (pair_ok A B x) then Some false
          else let Pf := filter (fun y => negb (subsumesb x y)) P in         (* refine: processed pairs subsumed by x are deleted *)
               let P' := x :: Pf in
               let nw := filter (fun y => negb (memMP y (mstep A B Pf))) (mstep A B P') in   (* what x adds *)
               upw A B f P' (W' ++ nw)
      end
  end.
Definition up_worklist (A B : ta) (fuel : nat) : option bool := upw A B fuel [] (mstep A B []).

(* the same run with the comparator of the code's work list (`less`: size of the macro-state, state of A, then the address of the
   macro-state) WITHOUT its last clause, the tie-break on the macro-state itself: the work list being a std::set, a pair whose key is
   already pending is dropped on insertion. The code has the tie-break; this variant is refuted at the end of the file. *)
Definition same_key (x y : mp) : bool := N.eqb (fst x) (fst y) && Nat.eqb (length (snd x)) (length (snd y)).
Definition ins_keyed (W : list mp) (y : mp) : list mp := if existsb (same_key y) W then W else W ++ [y].
Fixpoint upw_keyed (A B : ta) (fuel : nat) (P W : list mp) : option bool :=
  match fuel with
  | 0 => None
  | S f =>
      match W with
      | [] => Some true
      | x :: W' =>
          if covered P x then upw_keyed A B f P W'
          else if negb (pair_ok A B x) then Some false
          else let Pf := filter (fun y => negb (subsumesb x y)) P in
               let P' := x :: Pf in
               let nw := filter (fun y => negb (memMP y (mstep A B Pf))) (mstep A B P') in
               upw_keyed A B f P' (fold_left ins_keyed nw W')
      end
  end.
Definition up_worklist_keyed (A B : ta) (fuel : nat) : option bool := upw_keyed A B fuel [] (fold_left ins_keyed (mstep A B []) []).

Lemma memMP_In x l : memMP x l = true <-> In x l.
Proof.
  unfold memMP. rewrite existsb_exists. split.
  - intros [y [Hy H]]. destruct (mp_eq_dec x y); [subst; auto | discriminate].
  - intros H. exists x. split; auto. destruct (mp_eq_dec x x); auto.
Qed.

(* The work list over any post function g and subsumption test sb that prune up to a preorder in the sense of AntichainUp.v:
   upw above is the instance (postB, subsumesb), upws of AntichainUpSim.v the instance (minimised postB, subsumes_le). *)
Section Worklist.
Variables A B : ta.
Variable bel : list N -> list N -> Prop.
Variable g : N -> list (list N) -> list N.
Hypothesis U : UpTo B bel g.
Variable sb : mp -> mp -> bool.
Hypothesis sb_sound : forall x y, subsumes bel x x -> subsumes bel y y -> sb x y = true -> subsumes bel x y.

Fixpoint wl (fuel : nat) (P W : list mp) : option bool :=
  match fuel with
  | 0 => None
  | S f =>
      match W with
      | [] => Some true
      | x :: W' =>
          if existsb (fun p => sb p x) P then wl f P W'
          else if negb (pair_ok A B x) then Some false
          else let Pf := filter (fun y => negb (sb x y)) P in
               let P' := x :: Pf in
               let nw := filter (fun y => negb (memMP y (gstep A g Pf))) (gstep A g P') in
               wl f P' (W' ++ nw)
      end
  end.

Record WInv (P W : list mp) : Prop := {
  w_wit : forall y, In y (P ++ W) -> Wit A B bel y;
  w_closed : forall y, In y (gstep A g P) -> Cov bel (P ++ W) y;
  w_ok : forall y, In y P -> pair_ok A B y = true }.

Lemma winv_init : WInv [] (gstep A g []).
Proof.
  assert (H : forall y, In y (gstep A g []) -> Wit A B bel y) by (apply (step_wit U); intros y []).
  split; [exact H | | intros y []].
  intros y Hy. exact (cov_in U (H y Hy) Hy).
Qed.

(* Stored pairs may go as long as a remaining pair subsumes each of them: what they covered, that pair covers. *)
Lemma winv_sub P W P' W' : WInv P W -> incl P' P -> incl (P' ++ W') (P ++ W) ->
  (forall z, In z (P ++ W) -> In z (P' ++ W') \/ exists p, In p (P' ++ W') /\ sb p z = true) -> WInv P' W'.
Proof.
  intros [HS HC HK] IP I HD. split; auto.
  intros y Hy. apply (cov_trans U (P ++ W)); [|exact (HC y (gstep_mono A g _ _ IP y Hy))].
  intros z Hz. destruct (HD z Hz) as [Hz'|[p [Hp E]]]; [exact (cov_in U (HS z Hz) Hz')|].
  exists p. split; [exact Hp|]. exact (sb_sound p z (wit_refl U p (HS p (I p Hp))) (wit_refl U z (HS z Hz)) E).
Qed.

Lemma winv_skip P x W : WInv P (x :: W) -> existsb (fun p => sb p x) P = true -> WInv P W.
Proof.
  intros HI E. apply existsb_exists in E as [p [Hp E]].
  apply (winv_sub P (x :: W)); [exact HI | apply incl_refl | apply incl_app_app; [apply incl_refl | apply incl_tl, incl_refl] |].
  intros z Hz. destruct (in_elt_inv _ _ _ _ Hz) as [<-|Hz']; [right; exists p; split; [apply in_or_app|]; auto | left; exact Hz'].
Qed.

Lemma winv_refine P x W : WInv P (x :: W) -> WInv (filter (fun y => negb (sb x y)) P) (x :: W).
Proof.
  intros HI. apply (winv_sub P (x :: W)); [exact HI | apply incl_filter | apply incl_app_app; [apply incl_filter | apply incl_refl] |].
  intros z Hz. destruct (sb x z) eqn:E; [right; exists x; split; [apply in_elt | exact E]|].
  left. apply in_app_or in Hz as [Hz|Hz]; apply in_or_app; [left; apply filter_In; rewrite E; auto | right; exact Hz].
Qed.

Lemma winv_process P x W : WInv P (x :: W) -> pair_ok A B x = true ->
  WInv (x :: P) (W ++ filter (fun y => negb (memMP y (gstep A g P))) (gstep A g (x :: P))).
Proof.
  intros [HS HC HK] Hok. set (nw := filter _ _).
  assert (HP : forall y, In y (x :: P) -> Wit A B bel y) by (intros y [<-|Hy]; apply HS; [apply in_elt | apply in_or_app; auto]).
  assert (Hn : forall y, In y nw -> Wit A B bel y) by (intros y Hy; apply filter_In in Hy; exact (step_wit U _ HP y (proj1 Hy))).
  split.
  - intros y Hy. apply in_app_or in Hy as [Hy|Hy]; [exact (HP y Hy)|]. apply in_app_or in Hy as [Hy|Hy]; [|exact (Hn y Hy)].
    apply HS, in_or_app. right. right. exact Hy.
  - intros y Hy. destruct (memMP y (gstep A g P)) eqn:Em.
    + apply memMP_In in Em. destruct (HC y Em) as [z [Hz Hs]]. exists z. split; [|exact Hs].
      destruct (in_elt_inv _ _ _ _ Hz) as [<-|Hz']; [left; reflexivity | right; rewrite app_assoc; apply in_or_app; auto].
    + assert (Hy' : In y nw) by (apply filter_In; rewrite Em; auto).
      apply (cov_in U (Hn y Hy')). apply in_or_app. right. apply in_or_app. right. exact Hy'.
  - intros y [<-|Hy]; auto.
Qed.

Theorem wl_correct : forall fuel P W b, WInv P W -> wl fuel P W = Some b -> b = incl_dec A B.
Proof.
  induction fuel as [|f IH]; intros P W b HI H; simpl in H; [discriminate|].
  destruct W as [|x W'].
  - inversion H. symmetry. pose proof (w_closed _ _ HI) as HC. rewrite app_nil_r in HC. exact (closed_ok U P HC (w_ok _ _ HI)).
  - destruct (existsb (fun p => sb p x) P) eqn:Ecov; [exact (IH P W' b (winv_skip P x W' HI Ecov) H)|].
    destruct (pair_ok A B x) eqn:Eok; simpl in H.
    + exact (IH _ _ b (winv_process _ x W' (winv_refine P x W' HI) Eok) H).
    + inversion H. symmetry. exact (wit_fail U x (w_wit _ _ HI x (in_elt x P W')) Eok).
Qed.

Theorem wl_refines fuel b : wl fuel [] (gstep A g []) = Some b -> b = incl_dec A B.
Proof. apply wl_correct, winv_init. Qed.
End Worklist.

Lemma upw_wl A B : forall fuel P W, upw A B fuel P W = wl A B (postB B) subsumesb fuel P W.
Proof.
  induction fuel as [|f IH]; intros P W; [reflexivity|].
  destruct W as [|x W']; [reflexivity|]. cbn [upw wl]. rewrite !IH. reflexivity.
Qed.

Theorem up_worklist_refines A B fuel b : up_worklist A B fuel = Some b -> b = incl_dec A B.
Proof.
  unfold up_worklist. rewrite upw_wl.
  apply (wl_refines A B _ _ (upto_incl B)). intros x y _ _. apply subsumesb_spec.
Qed.
Theorem up_worklist_exact A B fuel b : up_worklist A B fuel = Some b -> (b = true <-> lincl A B).
Proof. intros H. rewrite (up_worklist_refines A B fuel b H). apply incl_dec_spec. Qed.

Example up_worklist_runs :
  let A := {| rules := [ {| sym := 0; ch := []; par := 0 |}; {| sym := 2; ch := [0%N]; par := 0 |} ]; finals := [0%N] |} in
  let B := {| rules := [ {| sym := 0; ch := []; par := 0 |}; {| sym := 2; ch := [0%N]; par := 0 |}; {| sym := 2; ch := [0%N]; par := 1 |};
                         {| sym := 2; ch := [1%N]; par := 1 |} ]; finals := [0%N] |} in
  let A2 := {| rules := {| sym := 1; ch := []; par := 0 |} :: rules A; finals := [0%N] |} in
  up_worklist A B 20 = Some true /\ up_worklist B A 20 = Some true /\ up_worklist A2 B 20 = Some false.
Proof. vm_compute. repeat split; reflexivity. Qed.

Definition kA : ta := {| rules := [ {| sym := 1; ch := []; par := 0 |}; {| sym := 0; ch := []; par := 0 |}; {| sym := 2; ch := [0%N]; par := 1 |} ]; finals := [1%N] |}.
Definition kB : ta := {| rules := [ {| sym := 0; ch := []; par := 0 |}; {| sym := 1; ch := []; par := 1 |}; {| sym := 2; ch := [1%N]; par := 2 |};
                                    {| sym := 2; ch := [0%N]; par := 3 |} ]; finals := [2%N] |}.
Theorem up_worklist_keyed_refuted :
  up_worklist_keyed kA kB 20 = Some true /\ incl_dec kA kB = false /\ up_worklist kA kB 20 = Some false.
Proof. vm_compute. repeat split; reflexivity. Qed.
