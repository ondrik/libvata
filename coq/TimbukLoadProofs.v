(* C13 — proofs about the value-level load / dump models of TimbukLoadDefs.v *)
From Coq Require Import List ZArith Lia.
Import ListNotations.
From V Require Import ListAux TimbukDefs TimbukProofs.
From V Require Import TimbukLoadDefs.
Open Scope N_scope.

Lemma map_opt_ext_in : forall (A B : Type) (f : A -> option B) (g : A -> B) l,
  (forall x, In x l -> f x = Some (g x)) -> map_opt f l = Some (map g l).
Proof.
  induction l as [|x l IH]; simpl; intro H; auto.
  rewrite H by auto. rewrite IH by auto. reflexivity.
Qed.

Lemma map_opt_map_in : forall (A B : Type) (f : B -> option A) (g : A -> B) l,
  (forall x, In x l -> f (g x) = Some x) -> map_opt f (map g l) = Some l.
Proof.
  induction l as [|x l IH]; simpl; intro H; auto.
  rewrite H by auto. rewrite IH by auto. reflexivity.
Qed.

Lemma map_opt_exists : forall (A B : Type) (f : A -> option B) (P : A -> B -> Prop) l,
  (forall x, In x l -> exists y, f x = Some y /\ P x y) ->
  exists ys, map_opt f l = Some ys /\ Forall2 P l ys.
Proof.
  induction l as [|x l IH]; simpl; intro H; [exists []; auto|].
  destruct (H x (or_introl eq_refl)) as (y & E & Py). rewrite E.
  destruct IH as (ys & E' & F); [intros; apply H; auto|]. rewrite E'. exists (y :: ys). auto.
Qed.

Section DictProofs.
  Context {K : Type} {keq : K -> K -> bool}.
  Hypothesis keq_eq : forall a b, keq a b = true <-> a = b.

  (* the invariant of a dictionary filled by the weak translator, with its counter *)
  Definition dict_inv (st : dict K * N) : Prop :=
    (forall k v, lookup keq k (fst st) = Some v -> back v (fst st) = Some k) /\
    (forall k v, In (k, v) (fst st) -> v < snd st).

  Lemma lookup_app : forall k m m', lookup keq k (m ++ m') =
    match lookup keq k m with Some v => Some v | None => lookup keq k m' end.
  Proof. induction m as [|[k' v] m IH]; intro m'; simpl; auto. destruct (keq k k'); auto. Qed.

  Lemma back_app : forall v (m m' : dict K), back v (m ++ m') =
    match back v m with Some k => Some k | None => back v m' end.
  Proof. induction m as [|[k' v'] m IH]; intro m'; simpl; auto. destruct (v =? v'); auto. Qed.

  Lemma back_none : forall (m : dict K) c, (forall k v, In (k, v) m -> v < c) -> back c m = None.
  Proof.
    induction m as [|[k v] m IH]; intros c H; simpl; auto.
    destruct (N.eqb_spec c v) as [->|_].
    - destruct (N.lt_irrefl v). apply (H k). left; auto.
    - apply IH. intros k' v' I. apply (H k'). right; auto.
  Qed.

  Lemma dict_inv_weak : forall st k, dict_inv st -> dict_inv (weak keq st k).
  Proof.
    intros [m c] k [I1 I2]. unfold weak. simpl in *.
    destruct (lookup keq k m) eqn:L; [split; auto|]. split; simpl.
    - intros k0 v0. rewrite lookup_app, back_app.
      destruct (lookup keq k0 m) eqn:L0; [intros [= <-]; rewrite (I1 _ _ L0); reflexivity|].
      simpl. destruct (keq k0 k) eqn:E; [intros [= <-]|discriminate]. apply keq_eq in E.
      rewrite (back_none m c I2), N.eqb_refl, E. reflexivity.
    - intros k0 v0 [H|[[= _ <-]|[]]]%in_app_or; [apply I2 in H|]; lia.
  Qed.

  Lemma weak_keeps : forall st k k0 v, lookup keq k0 (fst st) = Some v -> lookup keq k0 (fst (weak keq st k)) = Some v.
  Proof.
    intros [m c] k k0 v H. unfold weak. simpl in *. destruct (lookup keq k m); simpl; auto.
    rewrite lookup_app, H. reflexivity.
  Qed.

  Lemma weak_adds : forall st k, exists v, lookup keq k (fst (weak keq st k)) = Some v.
  Proof.
    intros [m c] k. unfold weak. simpl. destruct (lookup keq k m) eqn:L; simpl; eauto.
    rewrite lookup_app, L. simpl. rewrite (proj2 (keq_eq k k) eq_refl). eauto.
  Qed.

  Lemma fold_weak : forall st ks, dict_inv st ->
    dict_inv (fold_left (weak keq) ks st) /\
    forall k, In k ks -> exists v, lookup keq k (fst (fold_left (weak keq) ks st)) = Some v.
  Proof.
    intros st ks I0. induction ks as [|k ks [I D]] using rev_ind; [split; [exact I0 | intros ? []]|].
    rewrite fold_left_app. cbn [fold_left]. split; [apply dict_inv_weak, I|].
    intros k0 [H|[<-|[]]]%in_app_or; [|apply weak_adds].
    destruct (D k0 H) as [v Hv]. exists v. apply weak_keeps, Hv.
  Qed.

  Theorem number_all_back : forall ks k, In k ks ->
    back (fwd keq (number_all keq ks) k) (number_all keq ks) = Some k.
  Proof.
    intros ks k H. unfold number_all, fwd.
    destruct (fold_weak ([], 0) ks) as [I D]; [split; [discriminate | intros ? ? []]|].
    destruct (D k H) as [v Hv]. rewrite Hv. apply I, Hv.
  Qed.

  Theorem number_all_inj : forall ks k k', In k ks -> In k' ks ->
    fwd keq (number_all keq ks) k = fwd keq (number_all keq ks) k' -> k = k'.
  Proof.
    intros ks k k' H H' E. pose proof (number_all_back ks k H) as B. rewrite E in B.
    rewrite (number_all_back ks k' H') in B. congruence.
  Qed.

  Lemma map_opt_back : forall ks l, incl l ks ->
    map_opt (fun q => back q (number_all keq ks)) (map (fwd keq (number_all keq ks)) l) = Some l.
  Proof. intros ks l H. apply map_opt_map_in. intros x Hx. apply number_all_back, H, Hx. Qed.
End DictProofs.

Lemma skeq_eq : forall a b, skeq a b = true <-> a = b.
Proof.
  intros [a1 a2] [b1 b2]. unfold skeq. simpl. split.
  - intros [->%beq_eq ->%Z.eqb_eq]%andb_prop. reflexivity.
  - intros [= -> ->]. rewrite (proj2 (beq_eq b1 b1)), Z.eqb_refl; reflexivity.
Qed.

Lemma in_state_keys_final : forall e d q, In q (d_finals d) -> In q (state_keys e d).
Proof. intros. unfold state_keys. apply in_or_app. left; auto. Qed.

Lemma in_state_keys_trans : forall e d t q, In t (d_trans d) -> (In q (t_ch t) \/ q = t_par t) -> In q (state_keys e d).
Proof.
  intros e d t q Ht Hq. unfold state_keys. apply in_or_app. right. apply in_flat_map. exists t. split; auto.
  destruct e; simpl; destruct Hq as [Hq|Hq]; subst; auto; apply in_or_app; simpl; auto.
Qed.

Lemma in_sym_keys : forall e d t, In t (d_trans d) -> In (skey e t) (sym_keys e d).
Proof. intros. unfold sym_keys. apply in_or_app. right. apply in_map; auto. Qed.

Theorem dump_load : forall e d, dump (load e d) = Some (d_finals d, d_trans d).
Proof.
  intros e d. unfold dump, load. cbn [l_aut l_states l_syms n_finals n_rules].
  rewrite (map_opt_back beq_eq) by (intros q Hq; apply in_state_keys_final; auto).
  rewrite map_opt_map_in; [reflexivity|].
  intros t Ht. unfold dump_rule. cbn [l_states l_syms n_ch n_sym n_par].
  rewrite (map_opt_back beq_eq) by (intros q Hq; eapply in_state_keys_trans; eauto).
  rewrite (number_all_back skeq_eq) by (apply in_sym_keys; auto).
  rewrite (number_all_back beq_eq) by (eapply in_state_keys_trans; eauto).
  destruct t; reflexivity.
Qed.

Theorem load_injective : forall e d q q', In q (state_keys e d) -> In q' (state_keys e d) ->
  fwd beq (l_states (load e d)) q = fwd beq (l_states (load e d)) q' -> q = q'.
Proof. intros e d q q'. apply (number_all_inj beq_eq). Qed.

Definition dumped_desc (fr : list bytes * list trans) : desc := mkDesc [] [] [] (fst fr) (snd fr).

(* the second sentence of the property at the level of the models: dump an automaton loaded from d,
   write the dump as Timbuk text, parse the text, load it and dump again — the same final states and
   rules under the same names *)
Theorem dump_text_load_dump : forall e d, wf_desc d = true ->
  exists fr, dump (load e d) = Some fr /\
  exists d2, parse (serialize (dumped_desc fr)) = Some d2 /\
             dump (load e d2) = Some (d_finals d, d_trans d).
Proof.
  intros e d H. exists (d_finals d, d_trans d). split; [apply dump_load|].
  exists (normal_name (dumped_desc (d_finals d, d_trans d))). split; [|exact (dump_load e (normal_name _))].
  apply parse_serialize_exact. apply wf_desc_sound in H as (_ & _ & _ & Hf & Ht).
  unfold wf_desc. cbn. rewrite Hf, Ht. reflexivity.
Qed.

Lemma nullary_ch : forall t, nullary t = true -> t_ch t = [].
Proof. intros [ch s p]. unfold nullary. simpl. destruct ch; [auto|discriminate]. Qed.

Lemma in_syms_of : forall a s y, In y (syms_of a s) <-> In (s, y) (f_starts a).
Proof.
  intros a s y. unfold syms_of. rewrite in_map_iff. split.
  - intros ([s' y'] & <- & [I <-%N.eqb_eq]%filter_In). exact I.
  - intro I. exists (s, y). split; [reflexivity|]. apply filter_In. split; [exact I | apply N.eqb_refl].
Qed.

Lemma in_start_states : forall a s, In s (start_states a) <-> exists y, In (s, y) (f_starts a).
Proof.
  intros a s. unfold start_states. rewrite nodup_In, in_map_iff. split.
  - intros ([s' y] & <- & I). eauto.
  - intros [y I]. exists (s, y). auto.
Qed.

Section FA.
  Variable d : desc.
  Hypothesis Hfa : is_fa d = true.
  Variable pick : list N -> N.
  Hypothesis pick_in : forall l, l <> [] -> In (pick l) l.

  Let sd := number_all beq (fa_state_keys d).
  Let yd := number_all beq (fa_sym_keys d).
  Definition edge_of (t : trans) : list (N * N * N) :=
    match t_ch t with
    | [c] => [(fwd beq sd c, fwd beq yd (t_sym t), fwd beq sd (t_par t))]
    | _ => []
    end.
  Let L := mkFaLoaded
      (mkNfa (map (fwd beq sd) (d_finals d))
             (map (fun t => (fwd beq sd (t_par t), fwd beq yd (t_sym t))) (filter nullary (d_trans d)))
             (flat_map edge_of (d_trans d)))
      sd yd.

  Lemma load_fa_eq : load_fa d = Some L.
  Proof. unfold load_fa. rewrite Hfa. reflexivity. Qed.

  (* fa_state_keys d is state_keys ET d *)
  Lemma key_state : forall t q, In t (d_trans d) -> In q (t_ch t) \/ q = t_par t -> In q (fa_state_keys d).
  Proof. exact (in_state_keys_trans ET d). Qed.

  Lemma back_state : forall t q, In t (d_trans d) -> In q (t_ch t) \/ q = t_par t -> back (fwd beq sd q) sd = Some q.
  Proof. intros t q Ht Hq. apply (number_all_back beq_eq), (key_state t q Ht Hq). Qed.

  Lemma back_sym : forall t, In t (d_trans d) -> back (fwd beq yd (t_sym t)) yd = Some (t_sym t).
  Proof. intros t Ht. apply (number_all_back beq_eq), in_or_app. right. apply in_map, Ht. Qed.

  Lemma finals_dump : map_opt (fun q => back q (fl_states L)) (f_finals (fl_aut L)) = Some (d_finals d).
  Proof. apply (map_opt_back beq_eq). intros q Hq. apply in_or_app. left. exact Hq. Qed.

  Lemma edges_dump_in : forall l, incl l (d_trans d) -> forallb unary_or_nullary l = true ->
    map_opt (dump_edge L) (flat_map edge_of l) = Some (filter (fun t => negb (nullary t)) l).
  Proof.
    induction l as [|t l IH]; intros I U; [reflexivity|]. apply andb_prop in U as [U1 U2].
    apply incl_cons_inv in I as [It Il]. specialize (IH Il U2).
    cbn [flat_map filter]. destruct t as [[|c [|c' ch]] sy pa]; try discriminate U1.
    - exact IH.
    - cbn [edge_of app map_opt t_ch]. unfold dump_edge at 1. cbn [fst snd fl_states fl_syms L].
      rewrite (back_state _ c It), (back_sym _ It), (back_state _ (t_par _) It), IH by (simpl; auto). reflexivity.
  Qed.

  Lemma edges_dump : map_opt (dump_edge L) (f_edges (fl_aut L)) = Some (filter (fun t => negb (nullary t)) (d_trans d)).
  Proof. exact (edges_dump_in _ (incl_refl _) Hfa). Qed.

  Definition start_ok (s : N) (t : trans) : Prop :=
    In t (d_trans d) /\ nullary t = true /\ fwd beq sd (t_par t) = s.

  Lemma in_starts : forall s y, In (s, y) (f_starts (fl_aut L)) <->
    exists t, start_ok s t /\ fwd beq yd (t_sym t) = y.
  Proof.
    intros s y. cbn [fl_aut L f_starts]. rewrite in_map_iff. unfold start_ok. split.
    - intros (t & [= <- <-] & [It Nt]%filter_In). eauto.
    - intros (t & (It & Nt & <-) & <-). exists t. split; [reflexivity | apply filter_In; auto].
  Qed.

  Lemma starts_dump : exists sts, map_opt (dump_start pick L) (start_states (fl_aut L)) = Some sts /\
    Forall2 start_ok (start_states (fl_aut L)) sts.
  Proof.
    apply map_opt_exists. intros s [y0 Hs%in_syms_of]%in_start_states.
    assert (P : In (pick (syms_of (fl_aut L) s)) (syms_of (fl_aut L) s)) by (apply pick_in; intros E; rewrite E in Hs; exact Hs).
    apply in_syms_of, in_starts in P as (t & K & E). exists t. split; [|exact K].
    unfold dump_start. rewrite <- E. destruct K as (It & Nt & <-). cbn [fl_syms fl_states L].
    rewrite (back_sym _ It), (back_state _ _ It) by auto.
    destruct t as [ch sy pa]. apply nullary_ch in Nt. simpl in Nt. subst ch. reflexivity.
  Qed.

  (* loading a word-automaton shaped description and dumping it: the final states, the unary rules,
     the start states and one nullary rule per start state come back, whatever symbol the dump picks *)
  Theorem dump_load_fa : exists l fr, load_fa d = Some l /\ dump_fa pick l = Some fr /\
    fa_same d (dumped_desc fr) = true.
  Proof.
    destruct starts_dump as (sts & Es & Fs).
    exists L, (d_finals d, sts ++ filter (fun t => negb (nullary t)) (d_trans d)).
    split; [apply load_fa_eq|]. split.
    - unfold dump_fa. rewrite finals_dump, Es, edges_dump. reflexivity.
    - apply (fa_same_picked d sts).
      + intros t I. destruct (Forall2_In_r _ _ _ _ Fs I) as (s & _ & It & Nt & _). auto.
      + intros t It Nt.
        assert (Hs : In (fwd beq sd (t_par t)) (start_states (fl_aut L))).
        { apply in_start_states. eexists. apply in_starts. exists t. repeat split; auto. }
        destruct (Forall2_In_l _ _ _ _ Fs Hs) as (t' & I' & It' & _ & E').
        exists t'. split; [exact I'|].
        apply (number_all_inj beq_eq (fa_state_keys d)); [apply (key_state t') | apply (key_state t) | exact E']; auto.
  Qed.
End FA.

(* a description with a rule of arity >= 2 is refused ("Not a finite automaton") *)
Theorem load_fa_guard : forall d, is_fa d = false -> load_fa d = None.
Proof. intros d H. unfold load_fa. rewrite H. reflexivity. Qed.
