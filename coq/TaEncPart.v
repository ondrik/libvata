(* C04 — the partition and block relation built by TranslateUpward (TaEncDefs.up_partition / up_block_rel) induce exactly
   the initial relation used in encode_up_correct_partial; hence the full statement encode_up_correct. *)
From Coq Require Import List NArith Bool Lia.
Import ListNotations.
From V Require Import Sem LtsSimDefs LtsSimProofs TaSimDefs TaSimProofs TaEncDefs TaEncProofs.

(* block_of_from unfolded once, its membership test read as Sem.memN (the same term), so that memN_In / memN_false rewrite it *)
Lemma bof_cons b P i x : block_of_from i (b :: P) x = if memN x b then Some i else block_of_from (N.succ i) P x.
Proof. reflexivity. Qed.

Lemma bof_skip : forall P1 P2 i x, (forall b, In b P1 -> ~ In x b) ->
  block_of_from i (P1 ++ P2) x = block_of_from (i + N.of_nat (length P1)) P2 x.
Proof.
  induction P1 as [|b P1 IH]; intros P2 i x H.
  - simpl. f_equal. lia.
  - cbn [app length]. rewrite bof_cons, (proj2 (memN_false x b)) by (apply H; left; auto).
    rewrite IH by (intros; apply H; right; auto). f_equal. lia.
Qed.
Lemma bof_hit b P i x : In x b -> block_of_from i (b :: P) x = Some i.
Proof. intros H. rewrite bof_cons, (proj2 (memN_In x b) H). reflexivity. Qed.
Lemma bof_same : forall P i x y, (forall b, In b P -> (In x b <-> In y b)) -> block_of_from i P x = block_of_from i P y.
Proof.
  induction P as [|b P IH]; intros i x y H; auto. rewrite !bof_cons, (IH (N.succ i) x y) by (intros; apply H; right; auto).
  assert (E : memN x b = memN y b) by (apply eq_true_iff_eq; rewrite !memN_In; apply H; left; auto).
  rewrite E. reflexivity.
Qed.
Lemma bof_both : forall P i x y j, block_of_from i P x = Some j -> block_of_from i P y = Some j ->
  exists b, In b P /\ In x b /\ In y b.
Proof.
  induction P as [|b P IH]; intros i x y j Hx Hy; [discriminate|]. rewrite bof_cons in Hx, Hy.
  destruct (memN x b) eqn:Ex, (memN y b) eqn:Ey.
  - exists b. rewrite <- !memN_In. simpl; auto.
  - inversion Hx; subst. apply block_of_from_lt in Hy. lia.
  - inversion Hy; subst. apply block_of_from_lt in Hx. lia.
  - destruct (IH _ _ _ _ Hx Hy) as [b' [Hb' H]]. exists b'. split; auto. right; auto.
Qed.

Lemma key_refl E : env_key_eqb E E = true.
Proof. apply env_key_eqb_spec. auto. Qed.
Lemma key_sym E E' : env_key_eqb E E' = true -> env_key_eqb E' E = true.
Proof. intros H. apply env_key_eqb_spec in H. apply env_key_eqb_spec. intuition congruence. Qed.
Lemma key_trans E E' E'' : env_key_eqb E E' = true -> env_key_eqb E' E'' = true -> env_key_eqb E E'' = true.
Proof. intros H H'. apply env_key_eqb_spec in H, H'. apply env_key_eqb_spec. intuition congruence. Qed.

Lemma env_heads_complete : forall es seen E, In E es \/ In E seen -> exists h, In h (env_heads seen es) /\ env_key_eqb h E = true.
Proof.
  induction es as [|e r IH]; intros seen E H; simpl.
  - destruct H as [[]|H]. exists E. split; [apply in_rev in H; exact H | apply key_refl].
  - destruct (existsb (env_key_eqb e) seen) eqn:Ex.
    + destruct H as [[<-|H]|H]; [|apply IH; auto|apply IH; auto].
      apply existsb_exists in Ex as [s [Hs K]]. destruct (IH seen s (or_intror Hs)) as [h [Hh Kh]].
      exists h. split; auto. eapply key_trans; [exact Kh | apply key_sym; exact K].
    + destruct H as [[<-|H]|H]; apply IH; simpl; auto.
Qed.

Lemma nodup_env_sub X : forall l E, In E (nodup_env X l) -> In E l.
Proof. induction l as [|e l IH]; simpl; intros E H; auto.
  destruct (existsb _ _); [right; auto|]. destruct H as [<-|H]; auto. Qed.
Lemma nodup_env_sup X : forall l, (forall E E', In E l -> In E' l -> u_eidx X E = u_eidx X E' -> E = E') ->
  forall E, In E l -> In E (nodup_env X l).
Proof.
  induction l as [|e l IH]; intros Hinj E H; [destruct H|]. simpl.
  assert (IH' : forall E, In E l -> In E (nodup_env X l)) by (apply IH; intros; apply Hinj; simpl; auto).
  destruct (existsb (fun e' => N.eqb (u_eidx X e) (u_eidx X e')) (nodup_env X l)) eqn:Ex.
  - destruct H as [<-|H]; auto. apply existsb_exists in Ex as [e' [He' K]]. apply N.eqb_eq in K.
    assert (e = e') by (apply Hinj; simpl; auto; right; eapply nodup_env_sub; eauto). subst; auto.
  - destruct H as [<-|H]; [left; auto | right; auto].
Qed.

Section Part.
Variables (X : uix) (A : ta) (n NN : nat).
Hypothesis Hok : up_ok X A n.
Let idx := u_idx X.
Let eidx := u_eidx X.
Let st := seqN n.
Let fin := filter (fun q => memN q (finals A)) st.
Let nonfin := filter (fun q => negb (memN q (finals A))) st.
Let two := match fin, nonfin with [], _ => false | _, [] => false | _, _ => true end.
Let base := if two then [fin; nonfin] else [st].
(* number of blocks of state nodes = index of the leaf block *)
Let nb : N := if two then 2%N else 1%N.
Let es := nodup_env X (all_envs X A).
Let heads := env_heads [] es.
Let EB := map (fun h => map eidx (filter (env_key_eqb h) es)) heads.
Let part := up_partition X n A.
Let brel := up_block_rel X n A.

Lemma part_eq : part = map (map idx) base ++ [[N.of_nat n]] ++ EB.
Proof. unfold part, up_partition, base, two, EB, heads, es, fin, nonfin, st, idx, eidx.
  destruct (filter (fun q => memN q (finals A)) (seqN n)); [reflexivity|].
  destruct (filter (fun q => negb (memN q (finals A))) (seqN n)); reflexivity. Qed.

Lemma brel_eq : brel = (if two then [(1%N, 0%N)] else []) ++ map (fun i => (i, i)) (seqN (length part)).
Proof. unfold brel, up_block_rel, two, part, fin, nonfin, st.
  destruct (filter (fun q => memN q (finals A)) (seqN n)); [reflexivity|].
  destruct (filter (fun q => negb (memN q (finals A))) (seqN n)); reflexivity. Qed.

Lemma len_base : N.of_nat (length (map (map idx) base)) = nb.
Proof. unfold base, nb. destruct two; reflexivity. Qed.
Lemma len_part : (nb < N.of_nat (length part))%N.
Proof. rewrite <- len_base, part_eq, !app_length. simpl. lia. Qed.

Lemma brel_In i j : In (i, j) brel <-> (two = true /\ i = 1%N /\ j = 0%N) \/ (i = j /\ (i < N.of_nat (length part))%N).
Proof.
  rewrite brel_eq, in_app_iff, in_map_iff. split.
  - intros [H|[k [E Hk]]].
    + destruct two; [|destruct H]. destruct H as [H|[]]. inversion H. auto.
    + inversion E; subst. right. split; auto. apply seqN_In; auto.
  - intros [[-> [-> ->]]|[-> H]]; [left; simpl; auto | right]. exists j. split; auto. apply seqN_In; auto.
Qed.
(* related block indices are of one kind: both below nb (state nodes), both nb (the leaf), or equal above nb (environments) *)
Lemma brel_kinds i j : In (i, j) brel -> (i ?= nb)%N = (j ?= nb)%N /\ ((nb < i)%N -> i = j).
Proof. rewrite brel_In. unfold nb. intros [[T [-> ->]]|[-> _]]; [rewrite T; split; [reflexivity | lia] | auto]. Qed.

Lemma es_In E : In E es <-> In E (all_envs X A).
Proof. unfold es. split; [apply nodup_env_sub | apply nodup_env_sup]. intros; apply (uk_einj _ _ _ Hok); auto. Qed.

Lemma fin_In q : In q fin <-> (q < N.of_nat n)%N /\ In q (finals A).
Proof. unfold fin, st. rewrite filter_In, seqN_In, memN_In. reflexivity. Qed.
Lemma nonfin_In q : In q nonfin <-> (q < N.of_nat n)%N /\ ~ In q (finals A).
Proof. unfold nonfin, st. rewrite filter_In, seqN_In, negb_true_iff, memN_false. reflexivity. Qed.

Lemma two_false_cases : two = false -> (forall q, (q < N.of_nat n)%N -> ~ In q (finals A)) \/ (forall q, (q < N.of_nat n)%N -> In q (finals A)).
Proof.
  unfold two. destruct fin as [|f fs] eqn:Ef.
  - intros _. left. intros q Hq Hf. assert (In q fin) by (apply fin_In; auto). rewrite Ef in H. destruct H.
  - destruct nonfin as [|g gs] eqn:Eg; [|discriminate]. intros _. right. intros q Hq.
    destruct (in_dec N.eq_dec q (finals A)); auto. assert (In q nonfin) by (apply nonfin_In; auto). rewrite Eg in H. destruct H.
Qed.

Lemma base_below l : In l base -> forall q, In q l -> (q < N.of_nat n)%N.
Proof.
  unfold base. intros Hl q Hq. destruct two.
  - destruct Hl as [<-|[<-|[]]]; [apply fin_In in Hq | apply nonfin_In in Hq]; tauto.
  - destruct Hl as [<-|[]]. apply seqN_In; auto.
Qed.
Lemma base_members b x : In b (map (map idx) base) -> In x b -> exists q, (q < N.of_nat n)%N /\ x = idx q.
Proof.
  intros Hb Hx. apply in_map_iff in Hb as [l [<- Hl]]. apply in_map_iff in Hx as [q [<- Hq]].
  exists q. split; auto. apply (base_below l Hl q Hq).
Qed.
Lemma in_map_idx q l : (q < N.of_nat n)%N -> In l base -> (In (idx q) (map idx l) <-> In q l).
Proof. intros Hq Hl. rewrite in_map_iff. split.
  - intros [x [E Hx]]. apply (uk_inj _ _ _ Hok) in E; auto; [subst; auto | apply (base_below l Hl x Hx)].
  - intros H. exists q. auto. Qed.

Definition sblock (q : N) : N := if two then (if memN q (finals A) then 0%N else 1%N) else 0%N.
Lemma sblock_lt q : (sblock q < nb)%N.
Proof. unfold sblock, nb. destruct two; [destruct (memN q (finals A))|]; lia. Qed.

Lemma block_state q : (q < N.of_nat n)%N -> block_of part (idx q) = Some (sblock q).
Proof.
  intros Hq. unfold block_of, sblock. rewrite part_eq.
  assert (Hb : forall l, In l base -> In q l -> forall P, block_of_from 0 (map idx l :: P) (idx q) = Some 0%N).
  { intros l Hl Hql P. apply bof_hit, in_map_idx; auto. }
  pose proof in_map_idx q as Hm. unfold base in *. destruct two; cbn [map app].
  - destruct (memN q (finals A)) eqn:Ef.
    + apply Hb; simpl; auto. apply fin_In. split; auto. apply memN_In; auto.
    + rewrite bof_cons, (proj2 (memN_false _ _)).
      * apply bof_hit, Hm; simpl; auto. apply nonfin_In. split; auto. rewrite <- memN_In. congruence.
      * rewrite Hm, fin_In, <- memN_In by (simpl; auto). intros [_ Hf]. congruence.
  - apply Hb; simpl; auto. apply seqN_In; auto.
Qed.

Lemma block_leaf : block_of part (N.of_nat n) = Some nb.
Proof.
  unfold block_of. rewrite part_eq, bof_skip, len_base.
  - apply bof_hit. left; auto.
  - intros b Hb Hx. destruct (base_members b _ Hb Hx) as [q [Hq E]]. pose proof (uk_lt _ _ _ Hok q Hq). unfold idx in *. lia.
Qed.

Lemma EB_member h E : In E (all_envs X A) -> (In (eidx E) (map eidx (filter (env_key_eqb h) es)) <-> env_key_eqb h E = true).
Proof.
  intros HE. rewrite in_map_iff. split.
  - intros [E' [Ee HE']]. apply filter_In in HE' as [HE' K].
    assert (E' = E) by (apply (uk_einj _ _ _ Hok); auto; apply es_In; auto). subst; auto.
  - intros K. exists E. split; auto. apply filter_In. split; auto. apply es_In; auto.
Qed.

Lemma env_not_low E b : In E (all_envs X A) -> In b (map (map idx) base ++ [[N.of_nat n]]) -> ~ In (eidx E) b.
Proof.
  intros HE Hb Hx. pose proof (uk_erng _ _ _ Hok E HE). apply in_app_or in Hb as [Hb|[<-|[]]].
  - destruct (base_members b _ Hb Hx) as [q [Hq E']]. pose proof (uk_lt _ _ _ Hok q Hq). unfold eidx, idx in *. lia.
  - destruct Hx as [Hx|[]]. unfold eidx in *. lia.
Qed.

Lemma block_env_eq E : In E (all_envs X A) -> block_of part (eidx E) = block_of_from (nb + 1) EB (eidx E).
Proof.
  intros HE. unfold block_of. rewrite part_eq, app_assoc, bof_skip by (intros b Hb; apply env_not_low; auto).
  f_equal. rewrite app_length, <- len_base. simpl. lia.
Qed.

Lemma block_env_some E : In E (all_envs X A) -> exists i, block_of part (eidx E) = Some i /\ (nb < i)%N.
Proof.
  intros HE. rewrite block_env_eq by auto.
  destruct (env_heads_complete es [] E (or_introl (proj2 (es_In E) HE))) as [h [Hh K]].
  destruct (block_of_from_some (nb + 1) EB (eidx E)) as [i Hi].
  - exists (map eidx (filter (env_key_eqb h) es)). split; [unfold EB; apply in_map_iff; exists h; auto|].
    apply EB_member; auto.
  - exists i. split; auto. apply block_of_from_lt in Hi. lia.
Qed.

Lemma block_env_same E E' : In E (all_envs X A) -> In E' (all_envs X A) ->
  (block_of part (eidx E) = block_of part (eidx E') <-> env_key_eqb E E' = true).
Proof.
  intros HE HE'. rewrite !block_env_eq by auto. split.
  - intros Heq. destruct (block_env_some E HE) as [i [Hi _]]. rewrite block_env_eq in Hi by auto.
    rewrite Hi in Heq. symmetry in Heq. destruct (bof_both _ _ _ _ _ Hi Heq) as [b [Hb [Hx Hy]]].
    unfold EB in Hb. apply in_map_iff in Hb as [h [<- Hh]].
    apply EB_member in Hx, Hy; auto.
    eapply key_trans; [apply key_sym; exact Hx | exact Hy].
  - intros K. apply bof_same. intros b Hb. unfold EB in Hb. apply in_map_iff in Hb as [h [<- Hh]].
    rewrite !EB_member by auto. split; intros K'.
    + eapply key_trans; eauto.
    + eapply key_trans; [exact K' | apply key_sym; exact K].
Qed.

Lemma block_inv x i : block_of part x = Some i ->
  match (i ?= nb)%N with
  | Lt => exists q, (q < N.of_nat n)%N /\ x = idx q /\ i = sblock q
  | Eq => x = N.of_nat n
  | Gt => exists E, In E (all_envs X A) /\ x = eidx E
  end.
Proof.
  intros H. destruct (bof_both _ _ _ _ _ H H) as [b [Hb [Hx _]]]. rewrite part_eq in Hb.
  apply in_app_or in Hb as [Hb|Hb]; [|apply in_app_or in Hb as [[<-|[]]|Hb]].
  - destruct (base_members b x Hb Hx) as [q [Hq ->]]. rewrite block_state in H by auto. injection H as <-.
    rewrite (proj2 (N.compare_lt_iff _ _) (sblock_lt q)). exists q. auto.
  - destruct Hx as [<-|[]]. rewrite block_leaf in H. injection H as <-. rewrite N.compare_refl. reflexivity.
  - apply in_map_iff in Hb as [h [<- Hh]]. apply in_map_iff in Hx as [E [<- HE]].
    apply filter_In, proj1, es_In in HE. destruct (block_env_some E HE) as [k [Hk Hlt]]. rewrite Hk in H. injection H as <-.
    rewrite (proj2 (N.compare_gt_iff _ _) Hlt). exists E. auto.
Qed.

Lemma sblock_rel q r : (q < N.of_nat n)%N -> (r < N.of_nat n)%N ->
  (In (sblock q, sblock r) brel <-> (In q (finals A) -> In r (finals A))).
Proof.
  intros Hq Hr. pose proof len_part as LP. rewrite brel_In, <- !memN_In. unfold sblock, nb in *. destruct two eqn:T.
  - destruct (memN q (finals A)), (memN r (finals A)); split; auto; try (intros _; right; split; auto; lia).
    + intros [[_ [H _]]|[H _]]; discriminate.
    + intros H. discriminate (H eq_refl).
  - split; [|intros _; right; split; auto; lia]. intros _. rewrite !memN_In.
    destruct (two_false_cases T) as [Hn|Ha]; [intros Hf; destruct (Hn q Hq Hf) | auto].
Qed.

Hypothesis HNN : forall E, In E (all_envs X A) -> (u_eidx X E < N.of_nat NN)%N.
Hypothesis HnNN : n < NN.

Theorem up_partition_induces x y :
  In (x, y) (init_rel NN part brel) <-> In (x, y) (up_node_init X n A).
Proof.
  rewrite init_rel_In, up_node_init_In. unfold init_relP. split.
  - intros [_ [_ [i [j [Hi [Hj Hb]]]]]].
    pose proof (block_inv x i Hi) as Kx. pose proof (block_inv y j Hj) as Ky.
    destruct (brel_kinds i j Hb) as [C D]. rewrite <- C in Ky. destruct (i ?= nb)%N eqn:Ci.
    + right; left. auto.
    + destruct Kx as [q [Hq [-> ->]]], Ky as [r [Hr [-> ->]]].
      left. exists q, r. repeat split; auto. apply up_init_In. repeat split; auto. apply (sblock_rel q r); auto.
    + destruct Kx as [E [HE ->]], Ky as [E' [HE' ->]]. right; right. exists E, E'. repeat split; auto.
      apply block_env_same; auto. rewrite Hi, Hj, (D (proj1 (N.compare_gt_iff _ _) Ci)). reflexivity.
  - pose proof len_part as LP.
    intros [[q [r [HI [-> ->]]]]|[[-> ->]|[E [E' [HE [HE' [K [-> ->]]]]]]]].
    + apply up_init_In in HI as [Hq [Hr Hf]].
      pose proof (uk_lt _ _ _ Hok q Hq). pose proof (uk_lt _ _ _ Hok r Hr).
      split; [lia|]. split; [lia|]. exists (sblock q), (sblock r). repeat split; try apply block_state; auto.
      apply sblock_rel; auto.
    + split; [lia|]. split; [lia|]. exists nb, nb. repeat split; try apply block_leaf. apply brel_In. right. auto.
    + split; [apply HNN; auto|]. split; [apply HNN; auto|].
      destruct (block_env_some E HE) as [i [Hi Hlt]]. exists i, i. repeat split; auto.
      * rewrite <- Hi. symmetry. apply block_env_same; auto.
      * apply brel_In. right. split; auto. unfold block_of in Hi. apply block_of_from_lt in Hi. lia.
Qed.
End Part.

(* TranslateUpward is correct: the greatest simulation of the encoded LTS inside the initial relation given by the
   partition and block relation it builds, read back through the state index, is the greatest upward simulation *)
Theorem encode_up_correct X A n NN : states_below A n -> up_ok X A n ->
  (forall E, In E (all_envs X A) -> (u_eidx X E < N.of_nat NN)%N) -> n < NN ->
  forall q r, (q < N.of_nat n)%N -> (r < N.of_nat n)%N ->
    (In (q, r) (up_sim A n) <->
     In (u_idx X q, u_idx X r) (lts_sim (translate_up X n A) NN (up_partition X n A) (up_block_rel X n A))).
Proof.
  intros Hb Hok HNN HnNN q r Hq Hr. rewrite (encode_up_correct_partial X A n Hb Hok q r Hq Hr).
  unfold up_lts_sim, lts_sim. apply lts_sim_from_ext. intros x y. symmetry. apply up_partition_induces; auto.
Qed.

Example ex_up_partition : up_partition (canon_uix ex_ta 4) 4 ex_ta = [[2; 3]; [0; 1]; [4]; [5; 7]; [6]; [8]]%N /\
                          up_block_rel (canon_uix ex_ta 4) 4 ex_ta = [(1, 0); (0, 0); (1, 1); (2, 2); (3, 3); (4, 4); (5, 5)]%N.
Proof. vm_compute. auto. Qed.

(* the version of TranslateUpward that translated the parent of an environment twice (defect D3 of DESIGN.md, repaired in
   /repo) is wrong for an index that is not the identity.  Witness: a trimmed 2-state automaton visited in the order 1, 0. *)
Definition d3_A : ta := {| rules := [ {| sym := 0; ch := []; par := 0 |}; {| sym := 3; ch := [0; 1]; par := 0 |};
                                      {| sym := 3; ch := [0; 0]; par := 1 |} ]%N; finals := [0%N] |}.
Definition d3_X : uix := mk_uix (perm_fun [1; 0]%N) d3_A 2.
Theorem encode_up_old_refuted :
  exists X A n, states_below A n /\ trimmed_ok A = true /\ up_ok X A n /\
    exists q r, (q < N.of_nat n)%N /\ (r < N.of_nat n)%N /\
      In (u_idx X q, u_idx X r) (up_lts_sim_old X n A) /\ ~ In (q, r) (up_sim A n) /\
      (In (u_idx X q, u_idx X r) (up_lts_sim X n A) <-> In (q, r) (up_sim A n)).
Proof.
  exists d3_X, d3_A, 2.
  assert (Hb : states_below d3_A 2) by (apply dense_ok_below; vm_compute; reflexivity).
  assert (Hok : up_ok d3_X d3_A 2) by (apply up_ok_b_sound; vm_compute; reflexivity).
  split; [exact Hb|]. split; [vm_compute; reflexivity|]. split; [exact Hok|].
  exists 1%N, 0%N. split; [reflexivity|]. split; [reflexivity|]. split; [|split].
  - apply (proj1 (memP_In _ _)). vm_compute. reflexivity.
  - intros H. apply memP_In in H. vm_compute in H. discriminate.
  - symmetry. apply encode_up_correct_partial; auto; reflexivity.
Qed.
