(* Generic least fixpoint by bounded saturation in a finite universe (pigeonhole on |U|). *)
From Coq Require Import List Arith Lia.
Import ListNotations.

Section Fix.
Variable X : Type.
Variable eq_dec : forall x y : X, {x = y} + {x <> y}.

Definition add1 (acc : list X) (x : X) : list X := if in_dec eq_dec x acc then acc else x :: acc.
Definition add_new (S news : list X) : list X := fold_left add1 news S.

Lemma add1_in acc x y : In y (add1 acc x) <-> In y acc \/ y = x.
Proof.
  unfold add1. destruct (in_dec eq_dec x acc) as [H|H]; simpl.
  - split; [auto | intros [Hy| ->]; assumption].
  - split; [intros [<-|Hy] | intros [Hy| ->]]; auto.
Qed.
Lemma add1_nodup acc x : NoDup acc -> NoDup (add1 acc x).
Proof. unfold add1. destruct (in_dec eq_dec x acc); auto. intros. constructor; auto. Qed.
Lemma add1_len acc x : length acc <= length (add1 acc x).
Proof. unfold add1. destruct (in_dec eq_dec x acc); simpl; lia. Qed.

Lemma add_new_in news : forall S y, In y (add_new S news) <-> In y S \/ In y news.
Proof. induction news as [|n ns IH]; simpl; intros S y. tauto. rewrite IH, add1_in. intuition. Qed.
Lemma add_new_nodup news : forall S, NoDup S -> NoDup (add_new S news).
Proof. induction news as [|n ns IH]; simpl; intros S H; auto. apply IH, add1_nodup, H. Qed.
Lemma add_new_len news : forall S, length S <= length (add_new S news).
Proof. induction news as [|n ns IH]; simpl; intros S; auto. specialize (IH (add1 S n)). pose proof (add1_len S n). lia. Qed.
Lemma add_new_len_eq news : forall S, length (add_new S news) = length S <-> incl news S.
Proof.
  induction news as [|n ns IH]; simpl; intros S; [split; [intros _ x [] | reflexivity]|].
  pose proof (add_new_len ns (add1 S n)) as L. unfold add1 in *. destruct (in_dec eq_dec n S) as [Hn|Hn].
  - rewrite IH. split; [intros H x [<-|Hx]; auto | intros H x Hx; apply H; right; exact Hx].
  - simpl in L. split; [lia | intros H; destruct Hn; apply H; left; reflexivity].
Qed.

Variable step : list X -> list X.
Hypothesis step_mono : forall S T, incl S T -> incl (step S) (step T).

Fixpoint saturate (fuel : nat) (S : list X) : list X :=
  match fuel with
  | 0 => S
  | Datatypes.S f => let S' := add_new S (step S) in
                     if Nat.eqb (length S') (length S) then S else saturate f S'
  end.

Lemma saturate_inv (P : list X -> Prop) : (forall S, P S -> P (add_new S (step S))) -> forall fuel S, P S -> P (saturate fuel S).
Proof. intros HP. induction fuel as [|f IH]; simpl; intros S H; auto. destruct (Nat.eqb _ _); auto. Qed.

Lemma saturate_nodup fuel : forall S, NoDup S -> NoDup (saturate fuel S).
Proof. apply saturate_inv. intros S. apply add_new_nodup. Qed.

Inductive Der : X -> Prop :=
| der S x : (forall y, In y S -> Der y) -> In x (step S) -> Der x.

Lemma saturate_sound fuel : forall S, (forall y, In y S -> Der y) -> forall x, In x (saturate fuel S) -> Der x.
Proof.
  apply (saturate_inv (fun S => forall y, In y S -> Der y)). intros S HS y Hy.
  apply add_new_in in Hy as [Hy|Hy]; auto. eapply der; eauto.
Qed.

Variable U : list X.
Hypothesis step_bounded : forall S, incl S U -> incl (step S) U.

Lemma saturate_closed fuel : forall S, NoDup S -> incl S U -> length U < fuel + length S ->
  incl (step (saturate fuel S)) (saturate fuel S).
Proof.
  induction fuel as [|f IH]; simpl; intros S ND HU Hf.
  - exfalso. pose proof (NoDup_incl_length ND HU). lia.
  - destruct (Nat.eqb_spec (length (add_new S (step S))) (length S)) as [E|NE].
    + apply add_new_len_eq, E.
    + apply IH.
      * apply add_new_nodup; auto.
      * intros x Hx. apply add_new_in in Hx as [Hx|Hx]; auto. eapply step_bounded; eauto.
      * pose proof (add_new_len (step S) S). lia.
Qed.

Lemma closed_complete R : incl (step R) R -> forall x, Der x -> In x R.
Proof. intros HR x D. induction D as [S x _ IH Hx]. apply HR. eapply step_mono; [|exact Hx]. exact IH. Qed.

Theorem saturate_lfp : forall x, In x (saturate (S (length U)) []) <-> Der x.
Proof.
  intros x; split.
  - apply saturate_sound. intros y [].
  - apply closed_complete. apply saturate_closed; [constructor | intros y [] | simpl; lia].
Qed.

Lemma saturate_stable fuel S : incl (step S) S -> saturate fuel S = S.
Proof. intros H. apply add_new_len_eq in H. destruct fuel; simpl; auto. rewrite H, Nat.eqb_refl. reflexivity. Qed.

Lemma saturate_add n : forall m S, saturate (n + m) S = saturate m (saturate n S).
Proof.
  induction n as [|n IH]; simpl; intros m S; auto.
  destruct (Nat.eqb_spec (length (add_new S (step S))) (length S)) as [E|NE]; auto.
  symmetry. apply saturate_stable, add_new_len_eq, E.
Qed.

Theorem saturate_more n : S (length U) <= n -> saturate n [] = saturate (S (length U)) [].
Proof.
  intros H. replace n with (S (length U) + (n - S (length U))) by lia. rewrite saturate_add.
  apply saturate_stable, saturate_closed; [constructor | intros y [] | simpl; lia].
Qed.

(* the same iteration with logarithmic fuel: 2^k rounds by nesting (early exit makes extra rounds harmless) *)
Fixpoint saturate2b (k : nat) (S : list X) : list X * bool :=
  match k with
  | 0 => let S' := add_new S (step S) in
         if Nat.eqb (length S') (length S) then (S, true) else (S', false)
  | Datatypes.S k' => let (S1, b1) := saturate2b k' S in
                      if b1 then (S1, true) else saturate2b k' S1
  end.
Definition saturate2 (k : nat) (S : list X) : list X := fst (saturate2b k S).

Lemma saturate2b_spec k : forall S, fst (saturate2b k S) = saturate (2 ^ k) S /\
  (snd (saturate2b k S) = true -> incl (step (saturate (2 ^ k) S)) (saturate (2 ^ k) S)).
Proof.
  induction k as [|k IH]; intros S.
  - simpl. destruct (Nat.eqb_spec (length (add_new S (step S))) (length S)) as [E|NE]; split; auto; [|discriminate].
    intros _. apply add_new_len_eq, E.
  - cbn [saturate2b]. destruct (IH S) as [E1 F1]. destruct (saturate2b k S) as [S1 b1]. simpl in E1, F1. subst S1.
    replace (2 ^ Datatypes.S k) with (2 ^ k + 2 ^ k) by (simpl; lia). rewrite saturate_add.
    destruct b1; [|apply IH]. simpl. rewrite (saturate_stable _ _ (F1 eq_refl)). auto.
Qed.

Lemma saturate2_pow k S : saturate2 k S = saturate (2 ^ k) S.
Proof. apply saturate2b_spec. Qed.

Theorem saturate2_lfp k : S (length U) <= 2 ^ k -> forall x, In x (saturate2 k []) <-> Der x.
Proof. intros H x. rewrite saturate2_pow, (saturate_more _ H). apply saturate_lfp. Qed.
End Fix.
